(* C17: accessors of parsed choices / sequences / repetitions / leaves reflect what was matched.
   Statements on the reference interpreter [aparse] and, through the refinement theorem of C05, on the
   real parse path [tparse]. *)
From Coq Require Import List NArith Arith Bool Lia.
From PT Require Import Model.Base Model.Stack Model.Texpr Model.Sem Model.Aparse Model.Access.
From PT Require Import Proofs.BaseFacts Proofs.StackInv Proofs.Refine Proofs.RepSpec Proofs.StackOps.
Import ListNotations.

Section Choice.
  Variable A : bool -> texpr -> nat -> list span -> ares (nat * tnode).
  Variables (inh : bool) (n : nat).

  Lemma a_choice_ok : forall es i0 pos stk p t stk',
    a_choice A inh n es i0 pos stk = AOk (p, t) stk' ->
    exists i e t', t = NChoice n (i0 + i) t' /\ i < length es /\ nth_error es i = Some e /\
      A inh e pos stk = AOk (p, t') stk' /\
      (forall j e_j, j < i -> nth_error es j = Some e_j -> A inh e_j pos stk = AFail).
  Proof.
    induction es as [|e es IH]; intros i0 pos stk p t stk' H; cbn [a_choice] in H; [discriminate|].
    destruct (A inh e pos stk) as [[p1 t1] s1| | |] eqn:Ha; try discriminate.
    - injection H as -> <- ->. exists 0, e, t1. rewrite Nat.add_0_r.
      split; [reflexivity|]. split; [apply Nat.lt_0_succ|]. split; [reflexivity|]. split; [exact Ha|].
      intros j e_j Hj. inversion Hj.
    - destruct (IH _ _ _ _ _ _ H) as (i & e' & t' & -> & Hi & Hn & Hm & Hb).
      exists (S i), e', t'. rewrite Nat.add_succ_r.
      split; [reflexivity|]. split; [apply (proj1 (Nat.succ_lt_mono _ _) Hi)|]. split; [exact Hn|]. split; [exact Hm|].
      intros [|j] e_j Hj Hnj; [injection Hnj as <-; exact Ha|].
      exact (Hb j e_j (proj2 (Nat.succ_lt_mono j i) Hj) Hnj).
  Qed.

  Lemma a_choice_fail : forall es i0 pos stk,
    a_choice A inh n es i0 pos stk = AFail ->
    forall j e_j, nth_error es j = Some e_j -> A inh e_j pos stk = AFail.
  Proof.
    induction es as [|e es IH]; intros i0 pos stk H j e_j Hn; [destruct j; discriminate|].
    cbn [a_choice] in H.
    destruct (A inh e pos stk) as [[p1 t1] s1| | |] eqn:Ha; try discriminate.
    destruct j as [|j]; [injection Hn as <-; exact Ha|exact (IH _ _ _ H j e_j Hn)].
  Qed.

  Lemma a_choice_complete : forall es i0 pos stk i e p t' stk',
    nth_error es i = Some e ->
    A inh e pos stk = AOk (p, t') stk' ->
    (forall j e_j, j < i -> nth_error es j = Some e_j -> A inh e_j pos stk = AFail) ->
    a_choice A inh n es i0 pos stk = AOk (p, NChoice n (i0 + i) t') stk'.
  Proof.
    induction es as [|e0 es IH]; intros i0 pos stk i e p t' stk' Hn Hm Hb; [destruct i; discriminate|].
    cbn [a_choice]. destruct i as [|i].
    - injection Hn as ->. rewrite Hm, Nat.add_0_r. reflexivity.
    - rewrite (Hb 0 e0 (Nat.lt_0_succ i) eq_refl), Nat.add_succ_r.
      apply (IH (S i0) pos stk i e); [exact Hn|exact Hm|].
      intros j e_j Hj. apply (Hb (S j)), (proj1 (Nat.succ_lt_mono j i)), Hj.
  Qed.
End Choice.

(* what a choice returns: variant i of ChoiceN, N the number of alternatives, alternative i (grammar order) matched
   with exactly this result, every earlier one failed.  [aparse] on a choice is [a_choice] from offset 0. *)
Theorem aparse_choice_inv {E fuel inh es pos stk p t stk'} :
  aparse E (S fuel) inh (TChoice es) pos stk = AOk (p, t) stk' ->
  exists i e_i t', t = NChoice (length es) i t' /\ i < length es /\ nth_error es i = Some e_i /\
    aparse E fuel inh e_i pos stk = AOk (p, t') stk' /\
    (forall j e_j, j < i -> nth_error es j = Some e_j -> aparse E fuel inh e_j pos stk = AFail).
Proof. exact (a_choice_ok (aparse E fuel) inh (length es) es 0 pos stk p t stk'). Qed.

Theorem aparse_first_match E fuel inh es pos stk p n i t stk' :
  aparse E (S fuel) inh (TChoice es) pos stk = AOk (p, NChoice n i t) stk' ->
  n = length es /\ i < length es /\
  exists e_i, nth_error es i = Some e_i /\
    aparse E fuel inh e_i pos stk = AOk (p, t) stk' /\
    (forall j e_j, j < i -> nth_error es j = Some e_j -> aparse E fuel inh e_j pos stk = AFail).
Proof.
  intros H. destruct (aparse_choice_inv H) as (i' & e & t' & [= -> -> ->] & Hi & Hr).
  split; [reflexivity|]. split; [exact Hi|]. exists e. exact Hr.
Qed.

Theorem aparse_choice_shape E fuel inh es pos stk p t stk' :
  aparse E (S fuel) inh (TChoice es) pos stk = AOk (p, t) stk' ->
  exists i t', t = NChoice (length es) i t' /\ i < length es.
Proof.
  intros H. destruct (aparse_choice_inv H) as (i & _ & t' & Heq & Hi & _).
  exists i, t'. split; assumption.
Qed.

Theorem accessor_unique k n i t t' :
  choice_acc k (NChoice n i t) = Some t' <-> k = i /\ t' = t.
Proof.
  cbn [choice_acc]. destruct (Nat.eqb_spec k i) as [->|Hne]; split.
  - intros [= ->]. split; reflexivity.
  - intros [_ ->]. reflexivity.
  - discriminate.
  - intros [Hk _]. contradiction.
Qed.

Theorem accessors_exactly_one n i t : i < n ->
  forall k, k < n -> nth_error (choice_accs n (NChoice n i t)) k = Some (if k =? i then Some t else None).
Proof.
  intros _ k Hk. unfold choice_accs.
  rewrite nth_error_map, (nth_error_nth' _ 0), seq_nth by (rewrite ?seq_length; exact Hk). reflexivity.
Qed.

Section Chain.
  Context {L : Type}.
  Variable d : tnode -> L.

  Lemma chain_go_res : forall (cls : list (tnode -> L)) k f r calls,
    cls <> [] -> chain_go k cls (HR (f + length cls) f r) calls = Some (r, calls).
  Proof.
    induction cls as [|cl [|cl2 rest] IH]; intros k f r calls Hne; [congruence| |];
      cbn [chain_go h_else_then h_else_if length]; rewrite Nat.add_succ_r.
    - rewrite Nat.add_0_r, Nat.eqb_refl. reflexivity.
    - replace (S f <? S (f + S (length rest))) with true by (symmetry; apply Nat.ltb_lt; lia).
      apply (IH (S k) (S f)). discriminate.
  Qed.

  (* a value holding variant f + j moves through the helpers f, f+1, ... until helper f + j runs closure j *)
  Lemma chain_go_var : forall (cls : list (tnode -> L)) k f j t calls,
    j < length cls ->
    chain_go k cls (HV (f + length cls) f (f + j) t) calls = Some (nth j cls d t, calls ++ [k + j]).
  Proof.
    induction cls as [|cl [|cl2 rest] IH]; intros k f j t calls Hj; [inversion Hj| |];
      cbn [chain_go h_else_then h_else_if length]; cbn [length] in Hj; rewrite Nat.add_succ_r.
    - apply Nat.lt_1_r in Hj as ->. rewrite !Nat.add_0_r, !Nat.eqb_refl. reflexivity.
    - replace (S f <? S (f + S (length rest))) with true by (symmetry; apply Nat.ltb_lt; lia).
      destruct j as [|j].
      + rewrite !Nat.add_0_r, Nat.eqb_refl. apply (chain_go_res (cl2 :: rest) (S k) (S f)). discriminate.
      + replace (f + S j =? f) with false by (symmetry; apply Nat.eqb_neq; lia).
        replace (f <? f + S j) with true by (symmetry; apply Nat.ltb_lt; lia).
        rewrite (Nat.add_succ_r f j), (Nat.add_succ_r k j). apply (IH (S k) (S f) j), Nat.succ_lt_mono, Hj.
  Qed.

  Theorem chain_runs_exactly n i t (cls : list (tnode -> L)) :
    2 <= n -> i < n -> length cls = n ->
    chain_run cls (NChoice n i t) = Some (nth i cls d t, [i]).
  Proof. intros _ Hi <-. apply (chain_go_var cls 0 0 i t [] Hi). Qed.

  Lemma mc_arms_spec : forall (arms : list (tnode -> L)) k j t,
    j < length arms -> mc_arms arms k (k + j) t = Some (nth j arms d t, [k + j]).
  Proof.
    induction arms as [|b rest IH]; intros k j t Hj; [inversion Hj|]. cbn [mc_arms].
    destruct j as [|j]; [rewrite Nat.add_0_r, Nat.eqb_refl; reflexivity|].
    replace (k + S j =? k) with false by (symmetry; apply Nat.eqb_neq; lia).
    rewrite Nat.add_succ_r. apply (IH (S k) j), Nat.succ_lt_mono, Hj.
  Qed.

  Theorem match_choices_runs_exactly n i t (arms : list (tnode -> L)) :
    2 <= n -> i < n -> length arms = n ->
    match_choices arms (NChoice n i t) = Some (nth i arms d t, [i]).
  Proof.
    intros Hn Hi <-. destruct arms as [|b0 [|b1 rest]]; [inversion Hi|cbn [length] in Hn; lia|].
    unfold match_choices. rewrite Nat.eqb_refl. apply (mc_arms_spec _ 0 i t Hi).
  Qed.
End Chain.

Theorem chain_on_parsed {L} (d : tnode -> L) E fuel inh es pos stk p t stk' (cls : list (tnode -> L)) :
  2 <= length es -> length cls = length es ->
  aparse E (S fuel) inh (TChoice es) pos stk = AOk (p, t) stk' ->
  exists i t', t = NChoice (length es) i t' /\ i < length es /\
    chain_run cls t = Some (nth i cls d t', [i]) /\
    match_choices cls t = Some (nth i cls d t', [i]) /\
    (forall k, choice_acc k t = Some t' <-> k = i).
Proof.
  intros Hn Hl H.
  destruct (aparse_choice_shape E fuel inh es pos stk p t stk' H) as (i & t' & -> & Hi).
  exists i, t'. split; [reflexivity|]. split; [exact Hi|].
  split; [apply chain_runs_exactly; assumption|]. split; [apply match_choices_runs_exactly; assumption|].
  intros k. rewrite accessor_unique. split; [intros [Hk _]; exact Hk|intros Hk; split; [exact Hk|reflexivity]].
Qed.

Section SeqSpec.
  Variable E : env.
  Variable A : bool -> texpr -> nat -> list span -> ares (nat * tnode).
  Variable lf : nat.
  Variables (b inh : bool).

  (* the elements matched one after the other, each preceded by the skip (none before the first) and
     each starting where the previous one stopped *)
  Inductive seq_items : list texpr -> bool -> nat -> list span -> list (list tnode * tnode) -> nat -> list span -> Prop :=
  | si_nil first pos stk : seq_items [] first pos stk [] pos stk
  | si_cons e es first pos stk pos1 skipped stk1 pos2 t stk2 its pos3 stk3 :
      a_pre_skip E A lf b (negb first) pos stk = AOk (pos1, skipped) stk1 ->
      A inh e pos1 stk1 = AOk (pos2, t) stk2 ->
      seq_items es false pos2 stk2 its pos3 stk3 ->
      seq_items (e :: es) first pos stk ((skipped, t) :: its) pos3 stk3.

  Lemma a_seq_spec : forall es first pos stk acc p t stk',
    a_seq E A lf b inh es first pos stk acc = AOk (p, t) stk' ->
    exists its, t = NSeq (rev acc ++ its) /\ seq_items es first pos stk its p stk'.
  Proof.
    induction es as [|e es IH]; intros first pos stk acc p t stk' H; cbn [a_seq] in H.
    - injection H as <- <- <-. exists []. rewrite app_nil_r. split; [reflexivity|constructor].
    - destruct (a_pre_skip E A lf b (negb first) pos stk) as [[p1 sk1] s1| | |] eqn:Hs; try discriminate.
      destruct (A inh e p1 s1) as [[p2 t2] s2| | |] eqn:Ha; try discriminate.
      destruct (IH _ _ _ _ _ _ _ H) as (its & -> & Hit).
      exists ((sk1, t2) :: its). cbn [rev]. rewrite <- app_assoc.
      split; [reflexivity|exact (si_cons _ _ _ _ _ _ _ _ _ _ _ _ _ _ Hs Ha Hit)].
  Qed.

  Lemma seq_items_length es first pos stk its p stk' :
    seq_items es first pos stk its p stk' -> length its = length es.
  Proof. induction 1; cbn [length]; congruence. Qed.

  Lemma seq_items_nth es first pos stk its p stk' :
    seq_items es first pos stk its p stk' ->
    forall j e_j, nth_error es j = Some e_j ->
    exists pre first_j pos_j stk_j pos1 skipped stk1 pos2 t_j stk2,
      seq_items (firstn j es) first pos stk pre pos_j stk_j /\ pre = firstn j its /\
      first_j = (if j =? 0 then first else false) /\
      a_pre_skip E A lf b (negb first_j) pos_j stk_j = AOk (pos1, skipped) stk1 /\
      A inh e_j pos1 stk1 = AOk (pos2, t_j) stk2 /\
      nth_error its j = Some (skipped, t_j).
  Proof.
    induction 1 as [first pos stk | e es first pos stk pos1 skipped stk1 pos2 t stk2 its pos3 stk3 Hs Ha Hr IH];
      intros j e_j Hn; [destruct j; discriminate|].
    destruct j as [|j]; cbn [nth_error firstn Nat.eqb] in *.
    - injection Hn as <-. exists [], first, pos, stk, pos1, skipped, stk1, pos2, t, stk2.
      split; [constructor|]. repeat split; assumption.
    - destruct (IH j e_j Hn) as (pre & fj & pj & sj & q1 & sk & s1 & q2 & tj & s2 & Hpre & -> & -> & Hsk & Haj & Hnj).
      (* the skip before a later element does not depend on whether the sequence started the list *)
      replace (if j =? 0 then false else false) with false in Hsk by (destruct (j =? 0); reflexivity).
      exists ((skipped, t) :: firstn j its), false, pj, sj, q1, sk, s1, q2, tj, s2.
      split; [exact (si_cons _ _ _ _ _ _ _ _ _ _ _ _ _ _ Hs Ha Hpre)|]. repeat split; assumption.
  Qed.
End SeqSpec.

Theorem aparse_seq E fuel inh k es pos stk p t stk' :
  aparse E (S fuel) inh (TSeq k es) pos stk = AOk (p, t) stk' ->
  exists its, t = NSeq its /\
    seq_items E (aparse E fuel) fuel (resolve k inh) inh es true pos stk its p stk' /\
    length its = length es /\
    seq_matched t = Some (map snd its) /\ seq_all t = Some its.
Proof.
  intros H.
  destruct (a_seq_spec E (aparse E fuel) fuel (resolve k inh) inh es true pos stk [] p t stk' H) as (its & -> & Hit).
  exists its. split; [reflexivity|]. split; [exact Hit|].
  split; [exact (seq_items_length _ _ _ _ _ _ _ _ _ _ _ _ Hit)|]. split; reflexivity.
Qed.

Lemma units_nth E A lf b inh e : forall i pos stk its p stk',
  units E A lf b inh e i pos stk its p stk' ->
  forall j it, nth_error its j = Some it ->
  exists pos_j stk_j pos_j' stk_j',
    units E A lf b inh e i pos stk (firstn j its) pos_j stk_j /\
    a_unit E A lf b inh e (i + j) pos_j stk_j = AOk (pos_j', it) stk_j'.
Proof.
  induction 1 as [i pos stk | i pos stk it0 p1 s1 its p2 s2 Hu Hr IH]; intros j it Hn; [destruct j; discriminate|].
  destruct j as [|j]; cbn [nth_error firstn] in *.
  - injection Hn as <-. exists pos, stk, p1, s1. rewrite Nat.add_0_r. split; [constructor|exact Hu].
  - destruct (IH j it Hn) as (pj & sj & pj' & sj' & Hpre & Huj).
    exists pj, sj, pj', sj'. rewrite Nat.add_succ_r. split; [exact (units_cons _ _ _ _ _ _ _ _ _ _ _ _ _ _ _ Hu Hpre)|exact Huj].
Qed.

Theorem aparse_rep_access E fuel inh k mn mx e pos stk p t stk' :
  aparse E (S fuel) inh (TRep k mn mx e) pos stk = AOk (p, t) stk' ->
  exists its, t = NRep (bounded mx) its /\
    units E (aparse E fuel) fuel (resolve k inh) inh e 0 pos stk its p stk' /\
    rep_matched t = Some (map snd its) /\ rep_all t = Some its /\
    (forall j it, nth_error its j = Some it ->
       exists pos_j stk_j pos_j' stk_j',
         units E (aparse E fuel) fuel (resolve k inh) inh e 0 pos stk (firstn j its) pos_j stk_j /\
         a_unit E (aparse E fuel) fuel (resolve k inh) inh e j pos_j stk_j = AOk (pos_j', it) stk_j').
Proof.
  intros H. pose proof (aparse_rep_bounds E fuel inh k mn mx e pos stk) as Hs. cbv zeta in Hs.
  rewrite H in Hs. destruct Hs as (its & -> & Hu & _).
  exists its. split; [reflexivity|]. split; [exact Hu|]. split; [reflexivity|]. split; [reflexivity|].
  exact (units_nth _ _ _ _ _ _ _ _ _ _ _ _ Hu).
Qed.

Theorem tparse_rep_access E : fixed E -> forall fuel inh k mn mx e pos st gs p t st',
  SInv (stk st) gs ->
  aparse E (S fuel) inh (TRep k mn mx e) pos (cache (stk st)) <> APanic ->
  tparse E (S fuel) inh (TRep k mn mx e) pos st = Ok (p, t) st' ->
  exists its, t = NRep (bounded mx) its /\
    units E (aparse E fuel) fuel (resolve k inh) inh e 0 pos (cache (stk st)) its p (cache (stk st')) /\
    rep_matched t = Some (map snd its) /\ rep_all t = Some its.
Proof.
  intros HF fuel inh k mn mx e pos st gs p t st' Hi Hn Ht.
  apply (tparse_ok_aparse E HF _ _ _ _ _ gs _ _ _ Hi Hn), proj1, aparse_rep_access in Ht.
  destruct Ht as (its & Ht & Hu & Hm & Ha & _). exists its. repeat split; assumption.
Qed.

Lemma consumed_eq I pos l rest : i_get I pos = MOk rest -> consumed I pos (pos + l) = MOk (firstn l rest).
Proof. intros Hg. unfold consumed. rewrite Hg, Nat.add_comm, Nat.add_sub. reflexivity. Qed.

Lemma span_text_is_consumed I pos l rest sp :
  i_get I pos = MOk rest -> l <= length rest -> i_span I pos (pos + l) = MOk sp ->
  sp = (pos, pos + l) /\ span_str I sp = MOk (firstn l rest).
Proof.
  intros Hg Hl Hsp. pose proof (i_span_str _ _ _ _ Hsp) as Hs. apply i_span_ok in Hsp as [-> _].
  split; [reflexivity|]. rewrite Hs, Nat.add_comm, Nat.add_sub. apply i_get_eq in Hg. subst rest.
  rewrite firstn_length in Hl. rewrite firstn_firstn, Nat.min_l; [reflexivity|].
  exact (Nat.le_trans _ _ _ Hl (Nat.le_min_l _ _)).
Qed.

Lemma match_string_consumed I s pos pos' :
  i_match_string I s pos = MOk (Some pos') -> pos' = pos + length s /\ consumed I pos pos' = MOk s.
Proof.
  unfold i_match_string. destruct (i_get I pos) as [rest|] eqn:Hg; cbn [mbind]; [|discriminate].
  destruct (is_prefix s rest) eqn:Hp; intros [= <-]. split; [reflexivity|].
  rewrite (consumed_eq _ _ _ _ Hg). apply is_prefix_firstn in Hp. rewrite Hp. reflexivity.
Qed.

Lemma match_string_none I s pos :
  i_match_string I s pos = MOk None -> consumed I pos (pos + length s) <> MOk s.
Proof.
  unfold i_match_string. destruct (i_get I pos) as [rest|] eqn:Hg; cbn [mbind]; [|discriminate].
  rewrite (consumed_eq _ _ _ _ Hg). destruct (is_prefix s rest) eqn:Hp; [discriminate|].
  intros _ [= Hf]. apply is_prefix_firstn in Hf. congruence.
Qed.

Section Leaves.
  Variable E : env.
  Let I := e_inp E.

  (* CharRange / ANY / unicode property: the stored char is the char decoded at the cursor, it satisfies the
     node's predicate, and the cursor moved by exactly its encoded length *)
  Definition char_leaf_spec (pred : char -> bool) (kind : chk) (pos : nat) (stk : list span)
             (p : nat) (t : tnode) (stk' : list span) : Prop :=
    exists c rest l, t = NChar kind c /\ stk' = stk /\
      i_get I pos = MOk rest /\ dec1 rest = Some (c, l) /\ p = pos + l /\ pred c = true /\
      i_match_char I pred pos = MOk (Some (p, c)) /\
      leaf_text (parent I) t = XChar c.

  Lemma match_char_inv pred pos p c :
    i_match_char I pred pos = MOk (Some (p, c)) ->
    exists rest l, i_get I pos = MOk rest /\ dec1 rest = Some (c, l) /\ p = pos + l /\ pred c = true.
  Proof.
    unfold i_match_char. destruct (i_get I pos) as [rest|]; cbn [mbind]; [|discriminate].
    destruct (dec1 rest) as [[c' l]|] eqn:Hd; [|discriminate].
    destruct (pred c') eqn:Hp; [|discriminate]. intros [= <- <-].
    exists rest, l. repeat split; assumption.
  Qed.

  Lemma match_char_leaf pred kind pos stk p c :
    i_match_char I pred pos = MOk (Some (p, c)) -> char_leaf_spec pred kind pos stk p (NChar kind c) stk.
  Proof.
    intros Hm. destruct (match_char_inv _ _ _ _ Hm) as (rest & l & Hg & Hd & Hp & Hc).
    exists c, rest, l. repeat split; assumption.
  Qed.

  (* ANY and the unicode properties store the char [match_char_by] returned: [aparse] on TAny and TCharBy is this [alift] *)
  Lemma char_leaf pred kind pos stk p t stk' :
    alift (i_match_char I pred pos) (fun o =>
      match o with Some (p', c) => AOk (p', NChar kind c) stk | None => AFail end) = AOk (p, t) stk' ->
    char_leaf_spec pred kind pos stk p t stk'.
  Proof.
    destruct (i_match_char I pred pos) as [[[p' c]|]|] eqn:Hm; cbn [alift]; try discriminate.
    intros [= <- <- <-]. apply match_char_leaf, Hm.
  Qed.

  (* CharRange re-reads the char from the text of the span it consumed: the same char *)
  Theorem leaf_range n inh lo hi pos stk p t stk' :
    aparse E (S n) inh (TRange lo hi) pos stk = AOk (p, t) stk' ->
    char_leaf_spec (fun c => (lo <=? c)%N && (c <=? hi)%N) CkRange pos stk p t stk'.
  Proof.
    cbn [aparse a_step]. fold I.
    destruct (i_match_char I (fun c => (lo <=? c)%N && (c <=? hi)%N) pos) as [[[p' c]|]|] eqn:Hm;
      cbn [alift]; try discriminate.
    destruct (match_char_inv _ _ _ _ Hm) as (rest & l & Hg & Hd & -> & _).
    destruct (i_span I pos (pos + l)) as [sp|] eqn:Hsp; cbn [alift]; [|discriminate].
    destruct (dec1_firstn _ _ _ Hd) as [Hl Hd']. specialize (Hd' 0). rewrite Nat.add_0_r in Hd'.
    destruct (span_text_is_consumed I pos l rest sp Hg Hl Hsp) as [_ ->]. cbn [alift]. rewrite Hd'.
    intros [= <- <- <-]. apply match_char_leaf, Hm.
  Qed.

  Theorem leaf_insens n inh s pos stk p t stk' :
    aparse E (S n) inh (TInsens s) pos stk = AOk (p, t) stk' ->
    exists txt, t = NInsens pos p /\ stk' = stk /\ p = pos + length s /\
      leaf_text (parent I) t = XText pos p (MOk txt) /\
      consumed I pos p = MOk txt /\ eq_ignore_case txt s = true.
  Proof.
    cbn [aparse a_step]. fold I. unfold aleaf, i_match_insens.
    destruct (i_get I pos) as [rest|] eqn:Hg; cbn [mbind alift]; [|discriminate].
    destruct (slice_opt rest 0 (length s)) as [pre|] eqn:Hso; [|discriminate].
    apply slice_opt_some in Hso as ((_ & Hl & _) & Hpre). rewrite Nat.sub_0_r in Hpre. subst pre. cbn [skipn] in *.
    destruct (eq_ignore_case (firstn (length s) rest) s) eqn:Hi; [|discriminate].
    destruct (i_span I pos (pos + length s)) as [sp|] eqn:Hsp; cbn [alift]; [|discriminate].
    destruct (span_text_is_consumed I pos _ rest sp Hg Hl Hsp) as [-> Hs]. rewrite Hs. cbn [alift].
    intros [= <- <- <-]. exists (firstn (length s) rest). cbn [leaf_text].
    change (slice_checked (parent I) pos (pos + length s)) with (span_str I (pos, pos + length s)).
    rewrite Hs, (consumed_eq _ _ _ _ Hg). repeat split. exact Hi.
  Qed.

  Lemma a_newline_spec : forall alts pos stk p t stk',
    a_newline E alts pos stk = AOk (p, t) stk' ->
    exists k bs, In (bs, k) alts /\ t = NNewline k /\ stk' = stk /\ i_match_string I bs pos = MOk (Some p).
  Proof.
    induction alts as [|[bs k] alts IH]; intros pos stk p t stk' H; cbn [a_newline] in H; [discriminate|].
    fold I in H.
    destruct (i_match_string I bs pos) as [[p'|]|] eqn:Hm; cbn [alift] in H; try discriminate.
    - injection H as <- <- <-. exists k, bs. repeat split; [left; reflexivity|exact Hm].
    - destruct (IH pos stk p t stk' H) as (k' & bs' & Hin & Hr).
      exists k', bs'. split; [right; exact Hin|exact Hr].
  Qed.

  (* NEWLINE: the kind tells which of "\r\n", "\n", "\r" was consumed; "\r\n" is preferred over "\r" *)
  Theorem leaf_newline n inh pos stk p t stk' :
    aparse E (S n) inh TNewline pos stk = AOk (p, t) stk' ->
    exists k, t = NNewline k /\ stk' = stk /\ leaf_text (parent I) t = XKind k /\
      consumed I pos p = MOk (nl_text k) /\ p = pos + length (nl_text k) /\
      (k = NlCR -> consumed I pos (pos + 2) <> MOk (nl_text NlCRLF)).
  Proof.
    cbn [aparse a_step]. intros H.
    destruct (a_newline_spec _ _ _ _ _ _ H) as (k & bs & Hin & -> & -> & Hm).
    assert (bs = nl_text k) as ->.
    { destruct Hin as [Hx|[Hx|[Hx|[]]]]; injection Hx as <- <-; reflexivity. }
    destruct (match_string_consumed I _ _ _ Hm) as [Hp Hcons].
    exists k. repeat split; try assumption.
    (* kind CR: the first alternative, "\r\n", was tried and did not match *)
    intros ->. unfold newline_bytes in H. cbn [a_newline] in H. fold I in H.
    destruct (i_match_string I [13%N; 10%N] pos) as [[p'|]|] eqn:Hm1; cbn [alift] in H; try discriminate.
    exact (match_string_none I _ pos Hm1).
  Qed.

  Lemma nl_text_inj k1 k2 : nl_text k1 = nl_text k2 -> k1 = k2.
  Proof. destruct k1, k2; intros H; try reflexivity; discriminate. Qed.

  (* PEEK, Skip and SkipChar store the span from the old cursor to the new one *)
  Lemma span_leaf kd pos p' stk p t stk' :
    alift (i_span I pos p') (fun _ => AOk (p', NSpanned kd pos p') stk) = AOk (p, t) stk' ->
    p' = p /\ t = NSpanned kd pos p /\ stk' = stk /\ pos <= p.
  Proof.
    destruct (i_span I pos p') as [sp|] eqn:Hsp; cbn [alift]; [|discriminate]. apply i_span_ok in Hsp.
    intros [= <- <- <-]. repeat split. apply Hsp.
  Qed.

  Theorem leaf_peek n inh pos stk p t stk' :
    aparse E (S n) inh TPeek pos stk = AOk (p, t) stk' ->
    exists sp rest_stk txt, t = NSpanned KPeek pos p /\ stk = sp :: rest_stk /\ stk' = stk /\
      span_str I sp = MOk txt /\ consumed I pos p = MOk txt /\
      leaf_text (parent I) t = XText pos p (slice_checked (parent I) pos p).
  Proof.
    intros H. destruct (a_peek_effect _ _ _ _ _ _ _ _ H) as (sp & rest_stk & txt & -> & -> & Hs & Hm).
    cbn [aparse a_step] in H. apply alift_ok in H as (txt' & _ & H). apply aleaf_ok in H as (p' & _ & H).
    apply span_leaf in H as (_ & -> & _).
    exists sp, rest_stk, txt. repeat split; [exact Hs|exact (proj2 (match_string_consumed _ _ _ _ Hm))].
  Qed.

  (* POP: the node stores the *popped* span; its text is the text consumed at the cursor *)
  Theorem leaf_pop n inh pos stk p t stk' :
    aparse E (S n) inh TPop pos stk = AOk (p, t) stk' ->
    exists sp txt, t = NSpanned KPop (fst sp) (snd sp) /\ stk = sp :: stk' /\
      leaf_text (parent I) t = XText (fst sp) (snd sp) (MOk txt) /\
      consumed I pos p = MOk txt /\ p = pos + length txt.
  Proof.
    intros H. apply a_pop_effect in H. destruct H as (sp & txt & -> & Hs & Hm & ->).
    destruct (match_string_consumed _ _ _ _ Hm) as [Hp Hcons].
    exists sp, txt. repeat split; try assumption.
    cbn [leaf_text]. unfold span_str in Hs. fold I in Hs. rewrite Hs. reflexivity.
  Qed.

  Theorem leaf_skip_until n inh ss pos stk p t stk' :
    aparse E (S n) inh (TSkipUntil ss) pos stk = AOk (p, t) stk' ->
    t = NSpanned KSkip pos p /\ stk' = stk /\ pos <= p /\
    (exists found, i_skip_until I true ss pos = (found, p)) /\
    leaf_text (parent I) t = XText pos p (slice_checked (parent I) pos p).
  Proof.
    cbn [aparse a_step]. fold I.
    destruct (i_skip_until I true ss pos) as [found p'].
    intros (-> & -> & -> & Hle)%span_leaf. repeat split; [exact Hle|exists found; reflexivity].
  Qed.

  Theorem leaf_skip_chars n inh k pos stk p t stk' :
    aparse E (S n) inh (TSkipChars k) pos stk = AOk (p, t) stk' ->
    t = NSpanned KSkipChar pos p /\ stk' = stk /\ pos <= p /\
    i_skip I k pos = MOk (Some p) /\
    leaf_text (parent I) t = XText pos p (slice_checked (parent I) pos p).
  Proof.
    cbn [aparse a_step]. fold I. intros (p' & Hm & H)%aleaf_ok.
    apply span_leaf in H as (-> & -> & -> & Hle). repeat split; assumption.
  Qed.
End Leaves.
