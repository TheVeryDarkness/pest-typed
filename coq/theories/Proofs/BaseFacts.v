(* What Model/Base.v's definitions do, independently of any grammar: the length facts of [dec1] and
   [is_prefix], the boundaries of a piece of a string, the test that the two slicing operations share,
   how far a successful cursor operation moves, and what the scan of [i_skip_until] returns.  Nothing
   here needs [enc] or the line model (those are in LinesUtf8.v), so the files about stacks and
   interpreters can use it without loading them. *)
From Coq Require Import List NArith Arith Bool Lia.
From PT Require Import Model.Base Proofs.ListFacts.
Import ListNotations.

Lemma dec1_firstn r c l : dec1 r = Some (c, l) ->
  l <= length r /\ forall j, dec1 (firstn (l + j) r) = Some (c, l).
Proof.
  (* [dec1] is unfolded on the left only: the right-hand one is opened once [l] is known *)
  destruct r as [|b0 r]; [discriminate|]. unfold dec1 at 1.
  destruct (b0 <? 128)%N eqn:E1.
  { intros [= <- <-]. split; [apply le_n_S, Nat.le_0_l|]. intros j. cbn [Nat.add firstn dec1]. rewrite E1. reflexivity. }
  destruct (b0 <? 224)%N eqn:E2.
  { destruct r as [|b1 r]; [discriminate|]. intros [= <- <-]. split; [do 2 apply le_n_S; apply Nat.le_0_l|].
    intros j. cbn [Nat.add firstn dec1]. rewrite E1, E2. reflexivity. }
  destruct (b0 <? 240)%N eqn:E3.
  { destruct r as [|b1 [|b2 r]]; [discriminate..|]. intros [= <- <-]. split; [do 3 apply le_n_S; apply Nat.le_0_l|].
    intros j. cbn [Nat.add firstn dec1]. rewrite E1, E2, E3. reflexivity. }
  destruct r as [|b1 [|b2 [|b3 r]]]; [discriminate..|]. intros [= <- <-]. split; [do 4 apply le_n_S; apply Nat.le_0_l|].
  intros j. cbn [Nat.add firstn dec1]. rewrite E1, E2, E3. reflexivity.
Qed.

Lemma dec1_pos r c l : dec1 r = Some (c, l) -> 1 <= l.
Proof.
  intros H. destruct l as [|l]; [|apply le_n_S, Nat.le_0_l].
  discriminate (proj2 (dec1_firstn _ _ _ H) 0).
Qed.

Lemma is_prefix_app p : forall l, is_prefix p l = true <-> exists r, l = p ++ r.
Proof.
  induction p as [|x p IH]; intros l; cbn [is_prefix].
  - split; [intros _; exists l; reflexivity|reflexivity].
  - destruct l as [|y l].
    + split; [discriminate|]. intros [r Hr]. discriminate.
    + rewrite andb_true_iff, N.eqb_eq, IH. split.
      * intros [-> [r ->]]. exists r. reflexivity.
      * intros [r Hr]. cbn [app] in Hr. inversion Hr; subst. split; [reflexivity|]. exists r. reflexivity.
Qed.

Lemma is_prefix_firstn s rest : is_prefix s rest = true <-> firstn (length s) rest = s.
Proof.
  rewrite is_prefix_app. split.
  - intros [r ->]. apply firstn_length_app.
  - intros H. exists (skipn (length s) rest). rewrite <- H at 1. symmetry. apply firstn_skipn.
Qed.

Lemma is_prefix_length p l : is_prefix p l = true -> length p <= length l.
Proof. intros [r ->]%is_prefix_app. rewrite app_length. apply Nat.le_add_r. Qed.

Lemma is_boundary_length s : is_boundary s (length s) = true.
Proof.
  unfold is_boundary. rewrite (proj2 (nth_error_None s (length s)) (le_n _)), Nat.eqb_refl. apply orb_true_r.
Qed.

(* strict on both sides: at its two ends the piece has a boundary whatever the string has *)
Lemma is_boundary_mid (pre cur post : list byte) c : 0 < c < length cur ->
  is_boundary (pre ++ cur ++ post) (length pre + c) = is_boundary cur c.
Proof.
  intros [H0 Hc]. unfold is_boundary.
  rewrite nth_error_app2, Nat.add_comm, Nat.add_sub, nth_error_app1 by (exact Hc || apply Nat.le_add_r).
  destruct c as [|c]; [inversion H0|]. destruct (nth_error cur (S c)) eqn:E; [reflexivity|].
  apply nth_error_None in E. lia.
Qed.

Lemma is_boundary_inner (pre cur post : list byte) c :
  c <= length cur -> is_boundary (pre ++ cur ++ post) (length pre + c) = true ->
  is_boundary cur c = true.
Proof.
  intros Hc H. destruct c as [|c]; [reflexivity|].
  destruct (Nat.eq_dec (S c) (length cur)) as [->|Hne]; [apply is_boundary_length|].
  rewrite <- (is_boundary_mid pre cur post) by lia. exact H.
Qed.

(* the test of [slice_opt] and [slice_checked]; SpanOps.valid_span and Format.fmt_valid_span are this
   same conjunction, so the lemma reads them too *)
Lemma slice_test_iff s a b :
  (a <=? b) && (b <=? length s) && is_boundary s a && is_boundary s b = true <->
  a <= b /\ b <= length s /\ is_boundary s a = true /\ is_boundary s b = true.
Proof. rewrite !andb_true_iff, !Nat.leb_le. tauto. Qed.

Lemma slice_checked_opt s a b :
  slice_checked s a b = match slice_opt s a b with Some x => MOk x | None => MPanic end.
Proof. unfold slice_checked, slice_opt. destruct (_ && _); reflexivity. Qed.

Lemma slice_opt_some s a b x : slice_opt s a b = Some x ->
  (a <= b /\ b <= length s /\ is_boundary s a = true /\ is_boundary s b = true) /\
  x = firstn (b - a) (skipn a s).
Proof.
  unfold slice_opt. destruct (_ && _) eqn:H; [|discriminate]. intros [= <-].
  exact (conj (proj1 (slice_test_iff s a b) H) eq_refl).
Qed.

Lemma slice_opt_intro s a b :
  a <= b -> b <= length s -> is_boundary s a = true -> is_boundary s b = true ->
  slice_opt s a b = Some (firstn (b - a) (skipn a s)).
Proof.
  intros H1 H2 Ha Hb. unfold slice_opt.
  rewrite (proj2 (slice_test_iff s a b) (conj H1 (conj H2 (conj Ha Hb)))). reflexivity.
Qed.

Lemma slice_length (s : list byte) a b : b <= length s -> length (firstn (b - a) (skipn a s)) = b - a.
Proof. intros H. apply firstn_length_le. rewrite skipn_length. apply Nat.sub_le_mono_r, H. Qed.

(* a slice cut at two boundaries has the boundaries of the string *)
Lemma is_boundary_slice s a b k : a <= b -> b <= length s ->
  is_boundary s a = true -> is_boundary s b = true -> k <= b - a ->
  is_boundary (firstn (b - a) (skipn a s)) k = is_boundary s (a + k).
Proof.
  intros Hab Hbl Ha Hb Hk. destruct k as [|k]; [rewrite Nat.add_0_r, Ha; reflexivity|].
  pose proof (slice_length s a b Hbl) as Hl.
  destruct (Nat.eq_dec (S k) (b - a)) as [E|Ne].
  - pose proof (is_boundary_length (firstn (b - a) (skipn a s))) as H. rewrite Hl in H.
    rewrite E, H, (Nat.add_comm a), (Nat.sub_add a b Hab), Hb. reflexivity.
  - rewrite <- (is_boundary_mid (firstn a s) _ (skipn (b - a) (skipn a s))) by lia.
    rewrite !firstn_skipn, firstn_length, Nat.min_l by lia. reflexivity.
Qed.

Lemma i_get_eq I pos rest :
  i_get I pos = MOk rest -> rest = firstn (i_end I - pos) (skipn pos (parent I)).
Proof.
  unfold i_get, slice_checked. destruct (_ && _ && _ && _); [|discriminate]. intros [= <-]. reflexivity.
Qed.

Lemma i_get_ok I c rest : i_get I c = MOk rest -> c <= i_end I /\ length rest = i_end I - c.
Proof.
  unfold i_get. rewrite slice_checked_opt. destruct (slice_opt _ _ _) as [l|] eqn:H; [|discriminate].
  intros [= <-]. apply slice_opt_some in H as ((Hc & He & _) & ->). exact (conj Hc (slice_length _ _ _ He)).
Qed.

Lemma i_span_ok I a b sp : i_span I a b = MOk sp -> sp = (a, b) /\ a <= b.
Proof.
  unfold i_span. destruct (slice_opt (parent I) a b) eqn:Hs; [|discriminate].
  intros [= <-]. exact (conj eq_refl (proj1 (proj1 (slice_opt_some _ _ _ _ Hs)))).
Qed.

Lemma i_span_str I a b sp : i_span I a b = MOk sp ->
  span_str I (a, b) = MOk (firstn (b - a) (skipn a (parent I))).
Proof.
  unfold i_span, span_str. cbn [fst snd]. rewrite slice_checked_opt.
  destruct (slice_opt (parent I) a b) eqn:Hs; [|discriminate].
  intros _. apply slice_opt_some in Hs as [_ ->]. reflexivity.
Qed.

Lemma skip_chars_len_bounds n : forall rest acc l,
  skip_chars_len rest n acc = Some l -> acc + n <= l <= acc + length rest.
Proof.
  induction n as [|n IH]; intros rest acc l; cbn [skip_chars_len].
  - intros [= <-]. rewrite Nat.add_0_r. exact (conj (le_n _) (Nat.le_add_r _ _)).
  - destruct (dec1 rest) as [[c d]|] eqn:Hd; [|discriminate].
    pose proof (dec1_pos _ _ _ Hd) as Hp. apply dec1_firstn in Hd as [Hd _].
    intros H. apply IH in H. rewrite skipn_length in H. lia.
Qed.

(* the four matchers look at the unconsumed text and advance inside it: [F] is what one of them
   computes from that text, [pos x] the cursor in its answer *)
Lemma via_get {T} (pos : T -> nat) (F : list byte -> option T) k I c x :
  (forall rest, F rest = Some x -> c + k <= pos x <= c + length rest) ->
  mbind (i_get I c) (fun rest => MOk (F rest)) = MOk (Some x) -> c + k <= pos x <= i_end I.
Proof.
  intros HF. destruct (i_get I c) as [rest|] eqn:Hg; cbn [mbind]; [|discriminate].
  apply i_get_ok in Hg as [Hc Hl]. intros [= H]. apply HF in H. lia.
Qed.

Lemma match_string_range I t c p : i_match_string I t c = MOk (Some p) -> c + length t <= p <= i_end I.
Proof.
  apply (via_get (fun p => p)). intros rest. destruct (is_prefix t rest) eqn:Hp; [|discriminate].
  intros [= <-]. apply is_prefix_length in Hp. lia.
Qed.

Lemma match_insens_range I t c p : i_match_insens I t c = MOk (Some p) -> c + length t <= p <= i_end I.
Proof.
  apply (via_get (fun p => p)). intros rest.
  destruct (slice_opt rest 0 (length t)) as [pre|] eqn:Hs; [|discriminate].
  destruct (eq_ignore_case pre t); [|discriminate].
  intros [= <-]. apply slice_opt_some in Hs as ((_ & Hs & _) & _). lia.
Qed.

Lemma skip_range I k c p : i_skip I k c = MOk (Some p) -> c + k <= p <= i_end I.
Proof.
  apply (via_get (fun p => p)). intros rest. destruct (skip_chars_len rest k 0) as [l|] eqn:Hs; [|discriminate].
  intros [= <-]. apply skip_chars_len_bounds in Hs. cbn [Nat.add] in Hs. lia.
Qed.

Lemma match_char_range I f c p ch : i_match_char I f c = MOk (Some (p, ch)) -> c + 1 <= p <= i_end I.
Proof.
  apply (via_get fst _ 1 I c (p, ch)). intros rest. destruct (dec1 rest) as [[c1 l]|] eqn:Hd; [|discriminate].
  destruct (f c1); [|discriminate]. intros [= <- _]. cbn [fst].
  pose proof (dec1_pos _ _ _ Hd). apply dec1_firstn in Hd as [Hd _]. lia.
Qed.

Lemma match_string_pos I t c p : i_match_string I t c = MOk (Some p) -> p = c + length t.
Proof.
  unfold i_match_string. destruct (i_get I c) as [rest|]; cbn [mbind]; [|discriminate].
  destruct (is_prefix t rest); [intros [= <-]; reflexivity|discriminate].
Qed.

(* the scan of [i_skip_until] returns the first hit among the [n] positions from [from] on *)
Lemma su_scan_spec I cut ss : forall n from,
  match su_scan I cut ss from n with
  | Some p => from <= p < from + n /\ su_hit I cut ss p = true /\
              forall q, from <= q < p -> su_hit I cut ss q = false
  | None => forall q, from <= q < from + n -> su_hit I cut ss q = false
  end.
Proof.
  induction n as [|n IH]; intros from; cbn [su_scan]; [intros q Hq; lia|].
  destruct (su_hit I cut ss from) eqn:Hh; [split; [lia|]; split; [exact Hh|intros q Hq; lia]|].
  specialize (IH (S from)).
  destruct (su_scan I cut ss (S from) n) as [p|]; [destruct IH as (Hr & Hp & IH); split; [lia|]; split; [exact Hp|]|];
    intros q Hq; (destruct (Nat.eq_dec q from) as [->|Hne]; [exact Hh|apply IH; lia]).
Qed.
