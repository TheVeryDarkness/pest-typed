(* C09: no panic and only good offsets, lifted from the cursor operations (Proofs/BoundaryOps.v)
   through the interpreters [tparse] / [tcheck] and the four entry points.

   Nothing is excluded: every constructor of [texpr] is covered.  The hypotheses on the grammar
   are weaker than "all literals are valid UTF-8": only the needles of [TStr] matter ([lits_ok]);
   the needles of [TInsens] and [TSkipUntil] may be arbitrary byte strings, because the code itself
   checks the cut (`get(..len)` / `get(from..end)`). *)
From Coq Require Import List ZArith.
From PT Require Import Model.Base Model.Stack Model.Texpr Model.SliceSpec Model.Sem Model.Tracker Model.LinesSpec.
From PT Require Import Proofs.LinesUtf8 Proofs.StackInv Proofs.CheckParse Proofs.StackOps.
From PT Require Import Proofs.BoundaryOps Proofs.SubInputOps Proofs.TrackerProofs.
Import ListNotations.

Fixpoint node_spans (t : tnode) : list (nat * nat) :=
  match t with
  | NInsens s e => [(s, e)]
  | NSpanned _ s e => [(s, e)]
  | NSeq items => flat_map (fun p => let '(sk, x) := p in flat_map node_spans sk ++ node_spans x) items
  | NRep _ items => flat_map (fun p => let '(sk, x) := p in flat_map node_spans sk ++ node_spans x) items
  | NChoice _ _ t1 => node_spans t1
  | NOpt (Some t1) => node_spans t1
  | NAtomicRep l => flat_map node_spans l
  | NArr l => flat_map node_spans l
  | NPos t1 => node_spans t1
  | NPush t1 => node_spans t1
  | NPair a b => node_spans a ++ node_spans b
  | NRule _ c sp =>
      match c with Some t1 => node_spans t1 | None => [] end ++ match sp with Some s => [s] | None => [] end
  | _ => []
  end.

Definition good_node (I : inp) (t : tnode) : Prop := Forall (good_span I) (node_spans t).

(* the position an event hands to the tracker *)
Definition ev_pos (e : event) : option nat :=
  match e with
  | EEnter _ p => Some p
  | EExit _ p _ => Some p
  | EEmptyStack p => Some p
  | EOutOfBound p _ _ => Some p
  | EPol _ => None
  | EPolEnd => None
  end.

Definition good_ev (I : inp) (e : event) : Prop :=
  match ev_pos e with Some p => good_cur I p | None => True end.

Definition good_stk (I : inp) (s : stack) : Prop :=
  Forall (good_span I) (cache s) /\ Forall (good_span I) (popped s).

Definition good_state (I : inp) (st : state) : Prop :=
  good_stk I (stk st) /\ Forall (good_ev I) (tr st).

Fixpoint str_lits (e : texpr) : list (list byte) :=
  match e with
  | TStr s => [s]
  | TSeq _ es => flat_map str_lits es
  | TChoice es => flat_map str_lits es
  | TOpt e1 => str_lits e1
  | TRep _ _ _ e1 => str_lits e1
  | TAtomicRep e1 => str_lits e1
  | TPos e1 => str_lits e1
  | TNeg e1 => str_lits e1
  | TPush e1 => str_lits e1
  | TArr _ e1 => str_lits e1
  | TPair a b => str_lits a ++ str_lits b
  | _ => []
  end.

Definition lits_ok (e : texpr) : Prop := Forall valid_utf8 (str_lits e).

(* the environment: a good input, the repaired skip_until and restore_on_none, string literals of all
   rule bodies and of the skip definition are valid UTF-8 *)
Definition env_ok (E : env) : Prop :=
  good_inp (e_inp E) /\ e_su_cut E = true /\ e_ron_fixed E = true /\
  (forall r, lits_ok (r_body (e_rules E r))) /\
  match e_skip E with SkipEmpty => True | SkipRep e => lits_ok e end.

Definition pre (I : inp) (c : nat) (st : state) (gs : list (list span)) : Prop :=
  good_cur I c /\ good_state I st /\ SInv (stk st) gs.

Definition post {A} (I : inp) (G : A -> Prop) (gs : list (list span)) (c : nat) (r : res (nat * A)) : Prop :=
  match r with
  | Ok (c', a) st' => c <= c' /\ good_cur I c' /\ G a /\ good_state I st' /\ SInv (stk st') gs
  | Fail st' => good_state I st' /\ SInv (stk st') gs
  | Panic => False
  | Fuel => True
  end.

Definition postc (I : inp) (gs : list (list span)) (c : nat) (r : res nat) : Prop :=
  match r with
  | Ok c' st' => c <= c' /\ good_cur I c' /\ good_state I st' /\ SInv (stk st') gs
  | Fail st' => good_state I st' /\ SInv (stk st') gs
  | Panic => False
  | Fuel => True
  end.

Definition post_entry {A} (I : inp) (G : A -> Prop) (r : res A) : Prop :=
  match r with
  | Ok a st' => G a /\ good_state I st'
  | Fail st' => good_state I st'
  | Panic => False
  | Fuel => True
  end.

Definition good_item (I : inp) (p : list tnode * tnode) : Prop :=
  Forall (good_node I) (fst p) /\ good_node I (snd p).

(* the nodes built from an accumulator: NAtomicRep / NArr, and NSeq / NRep *)
Lemma good_rev_nodes I acc : Forall (good_node I) acc -> Forall (good_span I) (flat_map node_spans (rev acc)).
Proof. intros H. apply Forall_flat_map, Forall_rev, H. Qed.

Lemma good_rev_items I acc : Forall (good_item I) acc ->
  Forall (good_span I)
    (flat_map (fun p : list tnode * tnode => let '(sk, x) := p in flat_map node_spans sk ++ node_spans x) (rev acc)).
Proof.
  intros H. apply Forall_flat_map, Forall_rev. eapply Forall_impl; [|exact H].
  intros [sk x] [H1 H2]. apply Forall_app. split; [apply Forall_flat_map, H1|exact H2].
Qed.

Lemma good_node_leaf I t : node_spans t = [] -> good_node I t.
Proof. intros H. unfold good_node. rewrite H. constructor. Qed.

Lemma mk_good_span {I x y} : good_cur I x -> good_cur I y -> x <= y -> good_span I (x, y).
Proof. intros Hx Hy Hxy. exact (conj Hx (conj Hy Hxy)). Qed.

Lemma good_node_span {I} t {x y} : node_spans t = [(x, y)] -> good_cur I x -> good_cur I y -> x <= y -> good_node I t.
Proof. intros H Hx Hy Hxy. unfold good_node. rewrite H. constructor; [exact (mk_good_span Hx Hy Hxy)|constructor]. Qed.

Lemma lits_ok_list es : Forall valid_utf8 (flat_map str_lits es) -> Forall lits_ok es.
Proof. intros H. apply Forall_flat_map in H. exact H. Qed.

Lemma good_state_ev I e st : good_ev I e -> good_state I st -> good_state I (ev e st).
Proof. intros He [Hs Ht]. split; [exact Hs|]. cbn [ev tr]. constructor; assumption. Qed.

Lemma good_state_with_tr I st0 st : good_state I st0 -> good_state I st -> good_state I (with_tr (tr st0) st).
Proof. intros [_ Ht] [Hs _]. split; assumption. Qed.

Lemma mk_pre I c st gs : good_cur I c -> good_state I st -> SInv (stk st) gs -> pre I c st gs.
Proof. intros H1 H2 H3. exact (conj H1 (conj H2 H3)). Qed.

(* [good_stk I] is [stack_all (good_span I)] of SubInputOps.v, whose lemmas say that every operation of
   pest::Stack keeps an element-wise invariant of the stored spans *)
Lemma good_snapshot I s : good_stk I s -> good_stk I (s_snapshot s).
Proof. exact (stack_all_snapshot (good_span I) s). Qed.

Lemma good_reinstall I saved s : Forall (good_span I) saved -> good_stk I s ->
  good_stk I (s_push_all saved (s_pop_all s)).
Proof. intros Hsv Hs. exact (stack_all_push_all _ saved _ Hsv (stack_all_pop_all _ s Hs)). Qed.

Lemma pre_cur {I c c' st gs} : good_cur I c' -> pre I c st gs -> pre I c' st gs.
Proof. intros Hc' (_ & H). exact (conj Hc' H). Qed.

Lemma pre_ev {I} e {c st gs} : good_ev I e -> pre I c st gs -> pre I c (ev e st) gs.
Proof. intros He (Hc & Hst & Hi). exact (mk_pre I c _ gs Hc (good_state_ev I e st He Hst) Hi). Qed.

Lemma pre_stk {I} s {c st gs gs'} : good_stk I s -> SInv s gs' -> pre I c st gs -> pre I c (with_stk s st) gs'.
Proof. intros Hs Hi (Hc & [_ Ht] & _). exact (conj Hc (conj (conj Hs Ht) Hi)). Qed.

Lemma pre_push {I x c st gs} : good_span I x -> pre I c st gs -> pre I c (with_stk (s_push x (stk st)) st) gs.
Proof.
  intros Hx Hpre. pose proof Hpre as (_ & [Hs _] & Hi).
  exact (pre_stk _ (stack_all_push _ x _ Hx Hs) (sinv_push x _ gs Hi) Hpre).
Qed.

Lemma pre_pop_all {I c st gs} : pre I c st gs -> pre I c (with_stk (s_pop_all (stk st)) st) gs.
Proof.
  intros Hpre. pose proof Hpre as (_ & [Hs _] & Hi).
  exact (pre_stk _ (stack_all_pop_all _ _ Hs) (proj1 (sinv_pop_all _ gs Hi)) Hpre).
Qed.

Lemma pre_pop {I c st gs} : pre I c st gs ->
  match s_pop (stk st) with
  | (Some x, s') => good_span I x /\ pre I c (with_stk s' st) gs
  | (None, _) => True
  end.
Proof.
  intros Hpre. pose proof Hpre as (_ & [Hs _] & Hi).
  pose proof (sinv_pop _ gs Hi) as Hp. pose proof (stack_all_pop _ _ Hs) as [Hg Hx].
  destruct (cache (stk st)); [rewrite Hp; exact Logic.I|].
  destruct Hp as (s' & Hs' & _ & Hi'). rewrite Hs' in *.
  split; [apply Hx; reflexivity|exact (pre_stk s' Hg Hi' Hpre)].
Qed.

(* entering a look-ahead: PosPred / NegPred snapshot the stack and flip the tracker's polarity *)
Lemma pre_lookahead {I} b {c st gs} : pre I c st gs ->
  pre I c (with_stk (s_snapshot (stk st)) (ev (EPol b) st)) (cache (stk st) :: gs).
Proof.
  intros Hpre. pose proof Hpre as (_ & [Hs _] & Hi).
  exact (pre_stk (s_snapshot (stk st)) Hs (sinv_snapshot _ gs Hi) (pre_ev (EPol b) Logic.I Hpre)).
Qed.

Lemma post_ok {A I} {G : A -> Prop} {gs c p a st} :
  c <= p -> G a -> pre I p st gs -> post I G gs c (Ok (p, a) st).
Proof. intros H1 H3 (H2 & H4 & H5). exact (conj H1 (conj H2 (conj H3 (conj H4 H5)))). Qed.

Lemma post_leaf {I gs c p t st} :
  node_spans t = [] -> c <= p -> pre I p st gs -> post I (good_node I) gs c (Ok (p, t) st).
Proof. intros Ht Hle Hpre. exact (post_ok Hle (good_node_leaf I t Ht) Hpre). Qed.

Lemma post_fail {A I} {G : A -> Prop} {gs c st} : pre I c st gs -> post I G gs c (@Fail (nat * A) st).
Proof. intros H. apply H. Qed.

Lemma post_mono {A I} {G : A -> Prop} {gs c c1 r} : c <= c1 -> post I G gs c1 r -> post I G gs c r.
Proof.
  intros Hc. destruct r as [[p a] st'|st'| |]; try exact (fun H => H).
  intros (H1 & H2). exact (conj (Nat.le_trans _ _ _ Hc H1) H2).
Qed.

Lemma postc_erase {A I} {G : A -> Prop} {gs c r} : post I G gs c r -> postc I gs c (erase r).
Proof.
  destruct r as [[p a] st'|st'| |]; [|exact (fun H => H)..].
  intros (H1 & H2 & _ & H4). exact (conj H1 (conj H2 H4)).
Qed.

(* Every combinator of Sem.v continues a run by a [match] of this shape.  A run that satisfies [post]
   hands its continuations [pre] again; what they return may be judged against another list of
   snapshots (the look-aheads restore one). *)
Lemma post_match {A B I} {G : A -> Prop} {H : B -> Prop} {gs' gs c r}
      {k : nat * A -> state -> res (nat * B)} {kf} :
  good_cur I c -> post I G gs' c r ->
  (forall c' a st, c <= c' -> G a -> pre I c' st gs' -> post I H gs c (k (c', a) st)) ->
  (forall st, pre I c st gs' -> post I H gs c (kf st)) ->
  post I H gs c (match r with Ok x st => k x st | Fail st => kf st | Panic => Panic | Fuel => Fuel end).
Proof.
  intros Hc Hr Hk Hf. destruct r as [[c' a] st|st| |]; [ | |exact Hr|exact Hr].
  - destruct Hr as (H1 & H2 & H3 & H4). exact (Hk c' a st H1 H3 (conj H2 H4)).
  - exact (Hf st (conj Hc Hr)).
Qed.

(* the usual case: the continuation runs on from the new cursor *)
Lemma post_seq {A B I} {G : A -> Prop} {H : B -> Prop} {gs c r} {k : nat * A -> state -> res (nat * B)} {kf} :
  good_cur I c -> post I G gs c r ->
  (forall c' a st, c <= c' -> G a -> pre I c' st gs -> post I H gs c' (k (c', a) st)) ->
  (forall st, pre I c st gs -> post I H gs c (kf st)) ->
  post I H gs c (match r with Ok x st => k x st | Fail st => kf st | Panic => Panic | Fuel => Fuel end).
Proof.
  intros Hc Hr Hk. apply (post_match Hc Hr).
  intros c' a st Hle Ha Hpre. exact (post_mono Hle (Hk c' a st Hle Ha Hpre)).
Qed.

Lemma postc_match {B I} {H : B -> Prop} {gs' gs c r} {k : nat -> state -> res (nat * B)} {kf} :
  good_cur I c -> postc I gs' c r ->
  (forall c' st, c <= c' -> pre I c' st gs' -> post I H gs c (k c' st)) ->
  (forall st, pre I c st gs' -> post I H gs c (kf st)) ->
  post I H gs c (match r with Ok c' st => k c' st | Fail st => kf st | Panic => Panic | Fuel => Fuel end).
Proof.
  intros Hc Hr Hk Hf. destruct r as [c' st|st| |]; [ | |exact Hr|exact Hr].
  - destruct Hr as (H1 & H2). exact (Hk c' st H1 H2).
  - exact (Hf st (conj Hc Hr)).
Qed.

(* the tracker's position is the initial cursor or the position of an event: a step leaves it or takes
   the maximum with the event's (TrackerProofs.record_position, add_special_position) *)
Lemma tstep_pos t e : t_position (tstep t e) = t_position t \/ ev_pos e = Some (t_position (tstep t e)).
Proof.
  assert (Hmax : forall a p, Nat.max a p = a \/ Some p = Some (Nat.max a p)).
  { intros a p. destruct (Nat.max_dec a p) as [H|H]; rewrite H; [left|right]; reflexivity. }
  destruct e; cbn [tstep ev_pos]; try (left; reflexivity).
  - destruct (t_stack t) as [|[[r0 p0] [|]] rest]; [left; reflexivity..|]. rewrite record_position. apply Hmax.
  - destruct (t_saved t); left; reflexivity.
  - rewrite add_special_position. apply Hmax.
  - rewrite add_special_position. apply Hmax.
Qed.

Lemma tracker_position_good I st : good_inp I -> good_state I st ->
  good_cur I (t_position (run_tracker (i_start I) (tr st))).
Proof.
  intros HI [_ Ht]. unfold run_tracker. apply Forall_rev in Ht.
  assert (Hc : good_cur I (t_position (tracker_new (i_start I)))) by exact (good_cur_start I HI).
  revert Hc. generalize (tracker_new (i_start I)) as t. induction Ht as [|e l He _ IH]; intros t Hc; [exact Hc|].
  apply IH. unfold good_ev in He. destruct (tstep_pos t e) as [->|Hp]; [exact Hc|]. rewrite Hp in He. exact He.
Qed.

Lemma newline_needle_ok bs k : In (bs, k) newline_bytes -> valid_utf8 bs.
Proof.
  intros [[= <- _]|[[= <- _]|[[= <- _]|[]]]].
  - exists [13; 10]%N. split; [repeat constructor|reflexivity].
  - exists [10]%N. split; [repeat constructor|reflexivity].
  - exists [13]%N. split; [repeat constructor|reflexivity].
Qed.

Lemma peek_spans_good E : good_inp (e_inp E) -> forall sps pos,
  Forall (good_span (e_inp E)) sps -> good_cur (e_inp E) pos -> ret_good (e_inp E) pos (peek_spans E sps pos).
Proof.
  intros HI. induction sps as [|sp sps IH]; intros pos Hs Hc; cbn [peek_spans].
  - exists (Some pos). split; [reflexivity|]. intros c' [= <-]. split; [apply le_n|exact Hc].
  - destruct (span_str_good _ sp HI (Forall_inv Hs)) as (txt & -> & Hv). cbn [mbind].
    destruct (match_string_good _ txt pos HI Hc Hv) as ([pos'|] & -> & Hgood); cbn [mbind].
    + destruct (Hgood pos' eq_refl) as [Hle Hc'].
      destruct (IH pos' (Forall_inv_tail Hs) Hc') as (o & Ho & Hgood2). exists o. split; [exact Ho|].
      intros c' Hc2. destruct (Hgood2 c' Hc2) as [Hle2 Hg2]. split; [exact (Nat.le_trans _ _ _ Hle Hle2)|exact Hg2].
    + exists None. split; [reflexivity|discriminate].
Qed.

Section Bound.
  Variable E : env.
  Hypothesis HE : env_ok E.
  Variable P : bool -> texpr -> nat -> state -> res (nat * tnode).
  Variable C : bool -> texpr -> nat -> state -> res nat.
  Local Notation I := (e_inp E).
  Hypothesis HP : forall inh e pos st gs,
    lits_ok e -> pre I pos st gs -> post I (good_node I) gs pos (P inh e pos st).
  Hypothesis HC : forall inh e pos st gs,
    lits_ok e -> pre I pos st gs -> postc I gs pos (C inh e pos st).

  Lemma env_inp : good_inp I.
  Proof. apply HE. Qed.

  Lemma ron_post {A} (G : A -> Prop) gs c (f : state -> res (nat * A)) st :
    good_state I st -> post I G gs c (f st) -> post I G gs c (ron E f st).
  Proof using HE.
    intros Hst Hp. unfold ron. destruct HE as (_ & _ & Hron & _). rewrite Hron.
    destruct (f st) as [[p a] st'|st'| |]; try exact Hp.
    destruct Hp as [[Hstk Htr] Hi]. split.
    - split; [apply good_reinstall; [apply Hst|exact Hstk]|exact Htr].
    - apply sinv_reinstall, Hi.
  Qed.

  Lemma notrack_post {A} (G : A -> Prop) gs c (f : state -> res (nat * A)) st :
    good_state I st -> post I G gs c (f st) -> post I G gs c (notrack f st).
  Proof using.
    intros Hst Hp. unfold notrack. destruct (f st) as [[p a] st'|st'| |]; try exact Hp.
    - destruct Hp as (H1 & H2 & H3 & H4 & H5).
      exact (conj H1 (conj H2 (conj H3 (conj (good_state_with_tr I st st' Hst H4) H5)))).
    - destruct Hp as (H4 & H5). exact (conj (good_state_with_tr I st st' Hst H4) H5).
  Qed.

  Lemma arep_post n : forall inh e pos st acc gs,
    lits_ok e -> pre I pos st gs -> Forall (good_node I) acc ->
    post I (good_node I) gs pos (arep_p E P n inh e pos st acc).
  Proof.
    induction n as [|n IH]; intros inh e pos st acc gs Hl Hpre Hacc; [exact Logic.I|].
    cbn [arep_p]. eapply post_seq; [apply Hpre| | |].
    - apply ron_post; [apply Hpre|]. apply notrack_post; [apply Hpre|]. apply HP; assumption.
    - intros c' t st' _ Ht Hpre'. apply IH; [exact Hl|exact Hpre'|constructor; assumption].
    - intros st' Hpre'. apply post_ok; [apply le_n|apply good_rev_nodes, Hacc|exact Hpre'].
  Qed.

  Variable lf : nat.

  Lemma skip_post pos st gs : pre I pos st gs -> post I (good_node I) gs pos (skip_p E P lf pos st).
  Proof.
    intros Hpre. unfold skip_p. destruct HE as (_ & _ & _ & _ & Hsk). destruct (e_skip E) as [|e].
    - apply post_leaf; [reflexivity|apply le_n|exact Hpre].
    - apply arep_post; [exact Hsk|exact Hpre|constructor].
  Qed.

  Lemma pre_skip_post b doit pos st gs : pre I pos st gs ->
    post I (Forall (good_node I)) gs pos (pre_skip_p E P lf b doit pos st).
  Proof.
    intros Hpre. unfold pre_skip_p. destruct b; [destruct doit|].
    - eapply post_seq; [apply Hpre|apply skip_post, Hpre| |intros st'; apply post_fail].
      intros c' t st' _ Ht Hpre'. apply post_ok; [apply le_n|repeat constructor; exact Ht|exact Hpre'].
    - apply post_ok; [apply le_n| |exact Hpre]. repeat constructor.
      unfold skip_default. destruct (e_skip E); apply good_node_leaf; reflexivity.
    - apply post_ok; [apply le_n|constructor|exact Hpre].
  Qed.

  Lemma seq_post b inh : forall es first pos st acc gs,
    Forall lits_ok es -> pre I pos st gs -> Forall (good_item I) acc ->
    post I (good_node I) gs pos (seq_p E P lf b inh es first pos st acc).
  Proof.
    induction es as [|e es IH]; intros first pos st acc gs Hl Hpre Hacc; cbn [seq_p].
    - apply post_ok; [apply le_n|apply good_rev_items, Hacc|exact Hpre].
    - eapply post_seq; [apply Hpre|apply pre_skip_post, Hpre| |intros st'; apply post_fail].
      intros p1 sk st1 _ Hsk Hpre1.
      eapply post_seq; [apply Hpre1|apply HP; [exact (Forall_inv Hl)|exact Hpre1]| |intros st'; apply post_fail].
      intros p2 t st2 _ Ht Hpre2.
      apply IH; [exact (Forall_inv_tail Hl)|exact Hpre2|constructor; [split; assumption|exact Hacc]].
  Qed.

  Lemma choice_post inh n : forall es i pos st gs,
    Forall lits_ok es -> pre I pos st gs ->
    post I (good_node I) gs pos (choice_p E P inh n es i pos st).
  Proof.
    induction es as [|e es IH]; intros i pos st gs Hl Hpre; cbn [choice_p]; [apply post_fail, Hpre|].
    eapply post_seq; [apply Hpre|apply ron_post; [apply Hpre|apply HP; [exact (Forall_inv Hl)|exact Hpre]]| |].
    - intros c' t st' _ Ht Hpre'. apply post_ok; [apply le_n|exact Ht|exact Hpre'].
    - intros st' Hpre'. apply IH; [exact (Forall_inv_tail Hl)|exact Hpre'].
  Qed.

  Lemma unit_post b inh e i pos st gs :
    lits_ok e -> pre I pos st gs -> post I (good_item I) gs pos (unit_p E P lf b inh e i pos st).
  Proof.
    intros Hl Hpre. unfold unit_p.
    eapply post_seq; [apply Hpre|apply pre_skip_post, Hpre| |intros st'; apply post_fail].
    intros p1 sk st1 _ Hsk Hpre1.
    eapply post_seq; [apply Hpre1|apply HP; [exact Hl|exact Hpre1]| |intros st'; apply post_fail].
    intros p2 t st2 _ Ht Hpre2. apply post_ok; [apply le_n|split; assumption|exact Hpre2].
  Qed.

  Lemma rep_post b inh mn mx e : forall n i pos st acc gs,
    lits_ok e -> pre I pos st gs -> Forall (good_item I) acc ->
    post I (good_node I) gs pos (rep_p E P lf n b inh mn mx e i pos st acc).
  Proof.
    assert (Hout : forall (stop : bool) pos st acc gs, pre I pos st gs -> Forall (good_item I) acc ->
              post I (good_node I) gs pos (if stop then Fail st else Ok (pos, NRep (bounded mx) (rev acc)) st)).
    { intros stop pos st acc gs Hpre Hacc. destruct stop; [apply post_fail, Hpre|].
      apply post_ok; [apply le_n|apply good_rev_items, Hacc|exact Hpre]. }
    induction n as [|n IH]; intros i pos st acc gs Hl Hpre Hacc; cbn [rep_p];
      (destruct (below i mx); [|apply Hout; assumption]); [exact Logic.I|].
    eapply post_seq; [apply Hpre|apply ron_post; [apply Hpre|apply unit_post; assumption]| |].
    - intros c' it st' _ Hit Hpre'. apply IH; [exact Hl|exact Hpre'|constructor; assumption].
    - intros st' Hpre'. apply Hout; assumption.
  Qed.

  Lemma arr_post inh e : forall n pos st acc gs,
    lits_ok e -> pre I pos st gs -> Forall (good_node I) acc ->
    post I (good_node I) gs pos (arr_p P n inh e pos st acc).
  Proof.
    induction n as [|n IH]; intros pos st acc gs Hl Hpre Hacc; cbn [arr_p].
    - apply post_ok; [apply le_n|apply good_rev_nodes, Hacc|exact Hpre].
    - eapply post_seq; [apply Hpre|apply HP; assumption| |intros st'; apply post_fail].
      intros c' t st' _ Ht Hpre'. apply IH; [exact Hl|exact Hpre'|constructor; assumption].
  Qed.

  (* an operation that returns a cursor or nothing: [leaf_match], and each alternative of NEWLINE *)
  Lemma ret_post {B} (H : B -> Prop) gs c m (k : nat -> res (nat * B)) f :
    ret_good I c m ->
    (forall c', c <= c' -> good_cur I c' -> post I H gs c (k c')) ->
    post I H gs c f ->
    post I H gs c (lift m (fun o => match o with Some c' => k c' | None => f end)).
  Proof.
    intros (o & -> & Hgood) Hk Hf. destruct o as [c'|]; [|exact Hf].
    destruct (Hgood c' eq_refl) as [Hle Hc']. exact (Hk c' Hle Hc').
  Qed.

  Lemma newline_post : forall alts pos st gs,
    (forall bs k, In (bs, k) alts -> valid_utf8 bs) -> pre I pos st gs ->
    post I (good_node I) gs pos (newline_p E alts pos st).
  Proof.
    induction alts as [|[bs k] alts IH]; intros pos st gs Hal Hpre; cbn [newline_p]; [apply post_fail, Hpre|].
    apply ret_post.
    - apply match_string_good; [exact env_inp|apply Hpre|exact (Hal bs k (or_introl eq_refl))].
    - intros c' Hle Hc'. apply post_leaf; [reflexivity|exact Hle|exact (pre_cur Hc' Hpre)].
    - apply IH; [|exact Hpre]. intros bs' k' Hin. exact (Hal bs' k' (or_intror Hin)).
  Qed.

  Lemma char_post gs c f st (k : nat -> char -> res (nat * tnode)) :
    pre I c st gs ->
    (forall c' ch, c <= c' -> good_cur I c' -> valid_char ch = true ->
       i_span I c c' = MOk (c, c') -> span_str I (c, c') = MOk (enc ch) -> post I (good_node I) gs c (k c' ch)) ->
    post I (good_node I) gs c
      (lift (i_match_char I f c) (fun o => match o with Some (c', ch) => k c' ch | None => Fail st end)).
  Proof.
    intros Hpre Hk. destruct (match_char_good I f c env_inp (proj1 Hpre)) as ([[c' ch]|] & -> & Hgood).
    - destruct (Hgood c' ch eq_refl) as (Hlt & _ & Hc' & Hv & Hsp & Hstr).
      exact (Hk c' ch (Nat.lt_le_incl _ _ Hlt) Hc' Hv Hsp Hstr).
    - apply post_fail, Hpre.
  Qed.

  Lemma span_post {B} (H : B -> Prop) gs c x y (k : span -> res (nat * B)) :
    good_cur I x -> good_cur I y -> x <= y -> post I H gs c (k (x, y)) -> post I H gs c (lift (i_span I x y) k).
  Proof. intros Hx Hy Hle Hk. rewrite (i_span_good I x y env_inp Hx Hy Hle). exact Hk. Qed.

  Lemma span_str_post {B} (H : B -> Prop) gs c sp (k : list byte -> res (nat * B)) :
    good_span I sp -> (forall txt, valid_utf8 txt -> post I H gs c (k txt)) ->
    post I H gs c (lift (span_str I sp) k).
  Proof. intros Hsp Hk. destruct (span_str_good I sp env_inp Hsp) as (txt & -> & Hv). exact (Hk txt Hv). Qed.

  (* the common tail: `start.span(end)`, then a node that carries (pos, pos') *)
  Lemma span_tail {gs pos pos' t st} :
    node_spans t = [(pos, pos')] -> pos <= pos' -> good_cur I pos -> pre I pos' st gs ->
    post I (good_node I) gs pos (lift (i_span I pos pos') (fun _ => Ok (pos', t) st)).
  Proof.
    intros Ht Hle Hc Hpre. apply span_post; [exact Hc|apply Hpre|exact Hle|].
    apply post_ok; [exact Hle|exact (good_node_span t Ht Hc (proj1 Hpre) Hle)|exact Hpre].
  Qed.

  (* leaving a look-ahead: the stack is restored to the snapshot *)
  Lemma restore_post {B} {H : B -> Prop} {g gs c c' st} {k : stack -> res (nat * B)} :
    good_cur I c -> pre I c' st (g :: gs) ->
    (forall s, pre I c (ev EPolEnd (with_stk s st)) gs -> post I H gs c (k s)) ->
    post I H gs c (lift (s_restore (stk st)) k).
  Proof.
    intros Hc Hpre Hk. pose proof Hpre as (_ & [Hs _] & Hi).
    destruct (sinv_restore _ _ _ Hi) as (s & Hrs & _ & Hi'). rewrite Hrs. apply Hk.
    apply pre_ev; [exact Logic.I|]. exact (pre_stk s (stack_all_restore _ _ s Hs Hrs) Hi' (pre_cur Hc Hpre)).
  Qed.

  Lemma step_post inh e pos st gs :
    lits_ok e -> pre I pos st gs -> post I (good_node I) gs pos (step_p E P C lf inh e pos st).
  Proof.
    intros Hl Hpre. pose proof Hpre as (Hc & Hst & Hi).
    pose proof HE as (_ & Hcut & _ & Hrules & _).
    assert (Hleaf : forall c' t, node_spans t = [] -> pos <= c' -> good_cur I c' ->
                      post I (good_node I) gs pos (Ok (c', t) st)).
    { intros c' t Ht Hle Hc'. exact (post_leaf Ht Hle (pre_cur Hc' Hpre)). }
    assert (Htail : forall c' t, node_spans t = [(pos, c')] -> pos <= c' -> good_cur I c' ->
                      post I (good_node I) gs pos (lift (i_span I pos c') (fun _ => Ok (c', t) st))).
    { intros c' t Ht Hle Hc'. exact (span_tail Ht Hle Hc (pre_cur Hc' Hpre)). }
    destruct e; cbn [step_p].
    - (* TStr *)
      apply ret_post; [|intros c'; apply Hleaf; reflexivity|apply post_fail, Hpre].
      apply match_string_good; [exact env_inp|exact Hc|exact (Forall_inv Hl)].
    - (* TInsens *)
      apply ret_post; [apply match_insens_good; [exact env_inp|exact Hc]| |apply post_fail, Hpre].
      intros c' Hle Hc'. apply span_post; [exact Hc|exact Hc'|exact Hle|].
      apply span_str_post; [exact (mk_good_span Hc Hc' Hle)|]. intros _ _.
      apply post_ok; [exact Hle|exact (good_node_span (NInsens pos c') eq_refl Hc Hc' Hle)|exact (pre_cur Hc' Hpre)].
    - (* TRange *)
      apply char_post; [exact Hpre|]. intros c' ch Hle Hc' Hv Hsp Hstr.
      rewrite Hsp. cbn [lift]. rewrite Hstr. cbn [lift].
      rewrite <- (app_nil_r (enc ch)), (dec1_enc ch [] Hv). apply Hleaf; [reflexivity|exact Hle|exact Hc'].
    - (* TAny *)
      apply char_post; [exact Hpre|]. intros c' ch Hle Hc' _ _ _. apply Hleaf; [reflexivity|exact Hle|exact Hc'].
    - (* TSoi *)
      destruct (i_at_start I pos); [apply Hleaf; [reflexivity|apply le_n|exact Hc]|apply post_fail, Hpre].
    - (* TEoi *)
      destruct (i_at_end I pos); [apply Hleaf; [reflexivity|apply le_n|exact Hc]|apply post_fail, Hpre].
    - (* TNewline *)
      apply newline_post; [exact newline_needle_ok|exact Hpre].
    - (* TCharBy *)
      apply char_post; [exact Hpre|]. intros c' ch Hle Hc' _ _ _. apply Hleaf; [reflexivity|exact Hle|exact Hc'].
    - (* TSkipUntil *)
      rewrite Hcut. pose proof (skip_until_good I ss pos env_inp Hc) as [Hle Hc'].
      destruct (i_skip_until I true ss pos) as [f p']. apply Htail; [reflexivity|exact Hle|exact Hc'].
    - (* TSkipChars *)
      apply ret_post; [apply skip_good; [exact env_inp|exact Hc]| |apply post_fail, Hpre].
      intros c'. apply Htail; reflexivity.
    - (* TSeq *)
      apply seq_post; [apply lits_ok_list; exact Hl|exact Hpre|constructor].
    - (* TChoice *)
      apply choice_post; [apply lits_ok_list; exact Hl|exact Hpre].
    - (* TOpt *)
      eapply post_seq; [exact Hc|apply ron_post; [exact Hst|apply HP; assumption]| |].
      + intros c' t st' _ Ht Hpre'. apply post_ok; [apply le_n|exact Ht|exact Hpre'].
      + intros st' Hpre'. apply post_leaf; [reflexivity|apply le_n|exact Hpre'].
    - (* TRep *)
      apply rep_post; [exact Hl|exact Hpre|constructor].
    - (* TAtomicRep *)
      apply arep_post; [exact Hl|exact Hpre|constructor].
    - (* TPos *)
      eapply post_match; [exact Hc|apply HP; [exact Hl|exact (pre_lookahead true Hpre)]| |];
        [intros c' t st' _ Ht Hpre'|intros st' Hpre']; apply (restore_post Hc Hpre'); intros s Hs.
      + apply post_ok; [apply le_n|exact Ht|exact Hs].
      + apply post_fail, Hs.
    - (* TNeg *)
      eapply postc_match; [exact Hc|apply HC; [exact Hl|exact (pre_lookahead false Hpre)]| |];
        [intros c' st' _ Hpre'|intros st' Hpre']; apply (restore_post Hc Hpre'); intros s Hs.
      + apply post_fail, Hs.
      + apply post_leaf; [reflexivity|apply le_n|exact Hs].
    - (* TPush *)
      eapply post_seq; [exact Hc|apply HP; assumption| |intros st'; apply post_fail].
      intros c' t st' Hle Ht Hpre'. apply span_post; [exact Hc|apply Hpre'|exact Hle|].
      apply post_ok; [apply le_n|exact Ht|]. apply pre_push; [exact (mk_good_span Hc (proj1 Hpre') Hle)|exact Hpre'].
    - (* TPeek *)
      destruct (s_peek (stk st)) as [sp|] eqn:Hpk; [|apply post_fail, pre_ev; [exact Hc|exact Hpre]].
      apply span_str_post; [exact (stack_all_peek _ _ sp (proj1 Hst) Hpk)|]. intros txt Hv.
      apply ret_post; [apply match_string_good; [exact env_inp|exact Hc|exact Hv]| |apply post_fail, Hpre].
      intros c'. apply Htail; reflexivity.
    - (* TPop *)
      pose proof (pre_pop Hpre) as Hpop.
      destruct (s_pop (stk st)) as [[sp|] s']; [|apply post_fail, pre_ev; [exact Hc|exact Hpre]].
      destruct Hpop as [Hsp Hpre']. apply span_str_post; [exact Hsp|]. intros txt Hv.
      apply ret_post; [apply match_string_good; [exact env_inp|exact Hc|exact Hv]| |apply post_fail, Hpre'].
      intros c' Hle Hc'. apply post_ok; [exact Hle| |exact (pre_cur Hc' Hpre')].
      destruct Hsp as (H1 & H2 & H3). exact (good_node_span (NSpanned KPop (fst sp) (snd sp)) eq_refl H1 H2 H3).
    - (* TDrop *)
      pose proof (pre_pop Hpre) as Hpop.
      destruct (s_pop (stk st)) as [[sp|] s']; [|apply post_fail, pre_ev; [exact Hc|exact Hpre]].
      apply post_leaf; [reflexivity|apply le_n|apply Hpop].
    - (* TPeekAll *)
      rewrite s_index_all. cbn [lift]. rewrite rev_involutive.
      apply ret_post; [apply peek_spans_good; [exact env_inp|apply Hst|exact Hc]| |apply post_fail, Hpre].
      intros c'. apply Htail; reflexivity.
    - (* TPopAll *)
      rewrite s_index_all. cbn [lift]. rewrite rev_involutive.
      apply ret_post; [apply peek_spans_good; [exact env_inp|apply Hst|exact Hc]| |apply post_fail, Hpre].
      intros c' Hle Hc'. apply span_tail; [reflexivity|exact Hle|exact Hc|].
      apply pre_pop_all, (pre_cur Hc' Hpre).
    - (* TPeekSlice *)
      destruct (slice_spec a b (Z.of_nat (length (cache (stk st))))) as [[s e]|] eqn:Hs.
      + destruct (slice_index_safe st a b s e Hs) as (sps & -> & Hsps). cbn [lift].
        apply ret_post; [apply peek_spans_good; [exact env_inp| |exact Hc]| |apply post_fail, Hpre].
        * subst sps. apply Forall_slice, Hst.
        * intros c' Hle Hc'. apply span_post; [exact Hc|exact Hc'|exact Hle|].
          apply Hleaf; [reflexivity|exact Hle|exact Hc'].
      + unfold stack_slice, s_len. rewrite Hs. apply post_fail, pre_ev; [exact Hc|exact Hpre].
    - (* TArr *)
      apply arr_post; [exact Hl|exact Hpre|constructor].
    - (* TPair *)
      apply Forall_app in Hl. destruct Hl as [Hl1 Hl2].
      eapply post_seq; [exact Hc|apply HP; assumption| |intros st'; apply post_fail].
      intros p1 t1 st1 _ Ht1 Hpre1.
      eapply post_seq; [apply Hpre1|apply HP; assumption| |intros st'; apply post_fail].
      intros p2 t2 st2 _ Ht2 Hpre2. apply post_ok; [apply le_n|apply Forall_app; split; assumption|exact Hpre2].
    - (* TEmpty *)
      apply Hleaf; [reflexivity|apply le_n|exact Hc].
    - (* TFail *)
      apply post_fail, Hpre.
    - (* TRule: the tracker is told the rule's start position on entry and on exit *)
      specialize (Hrules r). pose proof (pre_ev (EEnter r pos) Hc Hpre) as Hpre1.
      assert (Hexit : forall c' ok st', pre I c' st' gs -> pre I c' (ev (EExit r pos ok) st') gs).
      { intros c' ok st'. apply pre_ev. exact Hc. }
      destruct (r_emis (e_rules E r)).
      + (* span-only *)
        eapply postc_match; [exact Hc|apply HC; [exact Hrules|exact Hpre1]| |intros st' Hpre'; apply post_fail, Hexit, Hpre'].
        intros c' st' Hle Hpre'. apply span_post; [exact Hc|apply Hpre'|exact Hle|].
        apply post_ok; [exact Hle|exact (good_node_span (NRule r None (Some (pos, c'))) eq_refl Hc (proj1 Hpre') Hle)|apply Hexit, Hpre'].
      + (* expression only *)
        eapply post_seq; [exact Hc|apply HP; [exact Hrules|exact Hpre]| |intros st'; apply post_fail].
        intros c' t st' _ Ht Hpre'. apply post_ok; [apply le_n| |exact Hpre'].
        unfold good_node. cbn [node_spans]. rewrite app_nil_r. exact Ht.
      + (* both *)
        eapply post_seq; [exact Hc|apply HP; [exact Hrules|exact Hpre1]| |intros st' Hpre'; apply post_fail, Hexit, Hpre'].
        intros c' t st' Hle Ht Hpre'. apply span_post; [exact Hc|apply Hpre'|exact Hle|].
        apply post_ok; [apply le_n| |apply Hexit, Hpre'].
        apply Forall_app. split; [exact Ht|]. constructor; [exact (mk_good_span Hc (proj1 Hpre') Hle)|constructor].
  Qed.
End Bound.

Theorem boundaries_both E : env_ok E -> forall fuel inh e pos st gs,
  lits_ok e -> pre (e_inp E) pos st gs ->
  post (e_inp E) (good_node (e_inp E)) gs pos (tparse E fuel inh e pos st) /\
  postc (e_inp E) gs pos (tcheck E fuel inh e pos st).
Proof.
  intros HE. induction fuel as [|n IH]; intros inh e pos st gs Hl Hpre; [split; exact I|].
  assert (Hp : post (e_inp E) (good_node (e_inp E)) gs pos (tparse E (S n) inh e pos st)).
  { apply (step_post E HE (tparse E n) (tcheck E n)); [intros; apply IH; assumption..|exact Hl|exact Hpre]. }
  split; [exact Hp|]. rewrite check_is_parse; [exact (postc_erase Hp)|].
  intros Hx. rewrite Hx in Hp. exact Hp.
Qed.

Theorem tparse_boundaries E : env_ok E -> forall fuel inh e pos st gs,
  lits_ok e -> pre (e_inp E) pos st gs ->
  post (e_inp E) (good_node (e_inp E)) gs pos (tparse E fuel inh e pos st).
Proof. intros HE fuel inh e pos st gs Hl Hpre. apply boundaries_both; assumption. Qed.

Theorem tcheck_boundaries E : env_ok E -> forall fuel inh e pos st gs,
  lits_ok e -> pre (e_inp E) pos st gs ->
  postc (e_inp E) gs pos (tcheck E fuel inh e pos st).
Proof. intros HE fuel inh e pos st gs Hl Hpre. apply boundaries_both; assumption. Qed.

Lemma pre_start E : env_ok E -> pre (e_inp E) (i_start (e_inp E)) st0 [].
Proof. intros HE. apply mk_pre; [apply good_cur_start, HE|repeat split; constructor|exact sinv_new]. Qed.

Lemma lits_ok_rule r k : lits_ok (TRule r k).
Proof. constructor. Qed.

Theorem try_parse_partial_good E fuel r : env_ok E ->
  post (e_inp E) (good_node (e_inp E)) [] (i_start (e_inp E)) (try_parse_partial E fuel r).
Proof. intros HE. apply tparse_boundaries; [exact HE|apply lits_ok_rule|apply pre_start, HE]. Qed.

Theorem try_check_partial_good E fuel r : env_ok E ->
  postc (e_inp E) [] (i_start (e_inp E)) (try_check_partial E fuel r).
Proof. intros HE. apply tcheck_boundaries; [exact HE|apply lits_ok_rule|apply pre_start, HE]. Qed.

Lemma top_skip_p_good E fuel pos st gs : env_ok E -> pre (e_inp E) pos st gs ->
  post (e_inp E) (good_node (e_inp E)) gs pos (top_skip_p E fuel pos st).
Proof.
  intros HE Hpre. exact (skip_post E HE (tparse E fuel) (tparse_boundaries E HE fuel) fuel pos st gs Hpre).
Qed.

Lemma post_entry_match {A B I} {G : A -> Prop} {H : B -> Prop} {gs c r} {k : nat * A -> state -> res B} :
  post I G gs c r ->
  (forall c' a st, G a -> pre I c' st gs -> post_entry I H (k (c', a) st)) ->
  post_entry I H (match r with Ok x st => k x st | Fail st => Fail st | Panic => Panic | Fuel => Fuel end).
Proof.
  intros Hr Hk. destruct r as [[c' a] st|st| |]; [ | |exact Hr|exact Hr].
  - destruct Hr as (_ & H2 & H3 & H4). exact (Hk c' a st H3 (conj H2 H4)).
  - apply Hr.
Qed.

Lemma post_entry_map {A B I} {G : A -> Prop} {H : B -> Prop} (b : B) {r} : H b -> post_entry I G r ->
  post_entry I H (match r with Ok _ st => Ok b st | Fail st => Fail st | Panic => Panic | Fuel => Fuel end).
Proof. intros Hb. destruct r as [a st|st| |]; [|exact (fun H => H)..]. intros [_ Hst]. exact (conj Hb Hst). Qed.

Lemma eoi_attempt_good E pos st : good_cur (e_inp E) pos -> good_state (e_inp E) st ->
  post_entry (e_inp E) (fun _ : unit => True) (eoi_attempt E pos st).
Proof.
  intros Hc Hst. unfold eoi_attempt.
  destruct (i_at_end (e_inp E) pos); cbn [post_entry]; [split; [exact I|]|]; repeat apply good_state_ev; assumption.
Qed.

Theorem try_parse_good E fuel r : env_ok E ->
  post_entry (e_inp E) (good_node (e_inp E)) (try_parse E fuel r).
Proof.
  intros HE. apply (post_entry_match (try_parse_partial_good E fuel r HE)).
  intros pos t st Ht Hpre.
  assert (Heoi : forall p s, pre (e_inp E) p s [] -> post_entry (e_inp E) (good_node (e_inp E))
            match eoi_attempt E p s with Ok _ s' => Ok t s' | Fail s' => Fail s' | Panic => Panic | Fuel => Fuel end).
  { intros p s (Hc & Hs & _). exact (post_entry_map t Ht (eoi_attempt_good E p s Hc Hs)). }
  destruct (no_ignore E r); [exact (Heoi pos st Hpre)|].
  apply (post_entry_match (top_skip_p_good E fuel pos st [] HE Hpre)).
  intros pos' _ st' _ Hpre'. exact (Heoi pos' st' Hpre').
Qed.

Theorem try_check_good E fuel r : env_ok E ->
  post_entry (e_inp E) (fun _ : unit => True) (try_check E fuel r).
Proof.
  intros HE. pose proof (try_parse_good E fuel r HE) as Hp.
  rewrite try_check_is_parse; [exact (post_entry_map tt I Hp)|].
  intros Hx. rewrite Hx in Hp. exact Hp.
Qed.

Definition final_state {A} (r : res A) : option state :=
  match r with Ok _ st => Some st | Fail st => Some st | _ => None end.

Lemma post_final {A I} {G : A -> Prop} {gs c r st} : post I G gs c r -> final_state r = Some st -> good_state I st.
Proof. destruct r as [[p a] s|s| |]; intros H [= <-]; apply H. Qed.

Lemma postc_final {I gs c r st} : postc I gs c r -> final_state r = Some st -> good_state I st.
Proof. destruct r as [p s|s| |]; intros H [= <-]; apply H. Qed.

Lemma post_entry_final {A I} {G : A -> Prop} {r st} : post_entry I G r -> final_state r = Some st -> good_state I st.
Proof. destruct r as [a s|s| |]; intros H [= <-]; apply H. Qed.

(* the error location reported by the tracker, for whatever state an entry point ends in *)
Theorem entry_error_location E fuel r : env_ok E ->
  forall st,
    (final_state (try_parse_partial E fuel r) = Some st \/ final_state (try_check_partial E fuel r) = Some st \/
     final_state (try_parse E fuel r) = Some st \/ final_state (try_check E fuel r) = Some st) ->
    good_cur (e_inp E) (t_position (run_tracker (i_start (e_inp E)) (tr st))).
Proof.
  intros HE st H. apply tracker_position_good; [apply HE|].
  destruct H as [H|[H|[H|H]]].
  - exact (post_final (try_parse_partial_good E fuel r HE) H).
  - exact (postc_final (try_check_partial_good E fuel r HE) H).
  - exact (post_entry_final (try_parse_good E fuel r HE) H).
  - exact (post_entry_final (try_check_good E fuel r HE) H).
Qed.

Theorem good_node_span_text I t : good_inp I -> good_node I t ->
  forall sp, In sp (node_spans t) -> exists txt, span_str I sp = MOk txt /\ valid_utf8 txt.
Proof. intros HI Ht sp Hin. apply span_str_good; [exact HI|]. exact (proj1 (Forall_forall _ _) Ht sp Hin). Qed.

(* the four entry points with [post], [postc] and [post_entry] spelled out *)
Lemma c09_entry_points : forall E fuel r, env_ok E ->
  match try_parse_partial E fuel r with
  | Ok (pos', t) st' =>
      i_start (e_inp E) <= pos' /\ good_cur (e_inp E) pos' /\ good_node (e_inp E) t /\ good_state (e_inp E) st'
  | Fail st' => good_state (e_inp E) st'
  | Panic => False
  | Fuel => True
  end /\
  match try_check_partial E fuel r with
  | Ok pos' st' => i_start (e_inp E) <= pos' /\ good_cur (e_inp E) pos' /\ good_state (e_inp E) st'
  | Fail st' => good_state (e_inp E) st'
  | Panic => False
  | Fuel => True
  end /\
  match try_parse E fuel r with
  | Ok t st' => good_node (e_inp E) t /\ good_state (e_inp E) st'
  | Fail st' => good_state (e_inp E) st'
  | Panic => False
  | Fuel => True
  end /\
  match try_check E fuel r with
  | Ok _ st' => good_state (e_inp E) st'
  | Fail st' => good_state (e_inp E) st'
  | Panic => False
  | Fuel => True
  end.
Proof.
  intros E fuel r HE.
  pose proof (try_parse_partial_good E fuel r HE) as H1.
  pose proof (try_check_partial_good E fuel r HE) as H2.
  pose proof (try_check_good E fuel r HE) as H4.
  split; [|split; [|split; [exact (try_parse_good E fuel r HE)|]]].
  - destruct (try_parse_partial E fuel r) as [[p t] s|s| |]; [|apply H1..].
    destruct H1 as (Hle & Hc & Ht & Hs & _). exact (conj Hle (conj Hc (conj Ht Hs))).
  - destruct (try_check_partial E fuel r) as [p s|s| |]; [|apply H2..].
    destruct H2 as (Hle & Hc & Hs & _). exact (conj Hle (conj Hc Hs)).
  - destruct (try_check E fuel r) as [t s|s| |]; apply H4.
Qed.

(* "aé€é😀" : 1-, 2-, 3-, 2- and 4-byte characters; the rule matches
   "a" ~ PUSH(ANY) ~ '\u{1f40}'..'\u{2328}' ~ PEEK ~ skip 1 char ~ EOI *)
Definition ex_cs : list char := [97; 233; 8364; 233; 128512]%N.
Definition ex_body : texpr :=
  TSeq SkOff [TStr (encode [97%N]); TPush TAny; TRange 8000%N 9000%N; TPeek; TSkipChars 1; TEoi].
Definition ex_body2 : texpr := TSeq SkOff [TPush TAny; TRange 8000%N 9000%N; TPeek; TEoi].
Definition ex_env (I : inp) (body : texpr) : env :=
  mk_env I (fun _ => mk_rdef (Some false) EmBoth body) SkipEmpty (fun _ _ => false) 99%N true true true.

Lemma ex_cs_valid : valid_str ex_cs.
Proof. repeat constructor. Qed.

Example ex_env_ok : env_ok (ex_env (inp_of_str (encode ex_cs)) ex_body).
Proof.
  split; [apply good_inp_str; exact ex_cs_valid|]. repeat split.
  intros r. cbn. constructor; [|constructor]. exists [97%N]. split; [repeat constructor|reflexivity].
Qed.

Example ex_runs :
  exists t st, try_parse (ex_env (inp_of_str (encode ex_cs)) ex_body) 20 0%N = Ok t st /\
               node_spans t = [(6, 8); (8, 12); (0, 12)] /\ cache (stk st) = [(1, 3)].
Proof. vm_compute. eexists _, _. repeat split. Qed.

(* the same characters seen through a SubInput2 that starts after "a" and ends before the emoji *)
Example ex_sub_ok : env_ok (ex_env (inp_of_span (encode ex_cs) 1 8) ex_body2).
Proof.
  split.
  - split; [exists ex_cs; split; [exact ex_cs_valid|reflexivity]|]. vm_compute. repeat constructor.
  - repeat split. intros r. constructor.
Qed.

Example ex_sub_runs :
  exists t st, try_parse (ex_env (inp_of_span (encode ex_cs) 1 8) ex_body2) 20 0%N = Ok t st /\
               node_spans t = [(6, 8); (1, 8)].
Proof. vm_compute. eexists _, _. repeat split. Qed.

(* the hypotheses are needed: an input cut inside a character, or a string needle that is not valid
   UTF-8, do make the model panic *)
Example ex_bad_input_panics :
  tparse (ex_env (inp_of_span (encode [8364%N]) 0 1) TAny) 5 true TAny 0 st0 = Panic.
Proof. reflexivity. Qed.

Example ex_bad_needle_panics :
  tparse (ex_env (inp_of_str (encode [233%N])) TAny) 5 true (TSeq SkOff [TStr [195%N]; TAny]) 0 st0 = Panic.
Proof. reflexivity. Qed.
