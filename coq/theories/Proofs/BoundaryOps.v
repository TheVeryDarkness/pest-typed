(* C09, matcher level: on valid UTF-8 every cursor operation of main/src/input.rs returns normally
   (never MPanic, the model of a debug panic / of release-mode undefined behaviour) and every cursor it
   returns lies inside the input range on a character boundary. *)
From Coq Require Import List Arith Lia.
From PT Require Import Model.Base Model.LinesSpec.
From PT Require Import Proofs.BaseFacts Proofs.LinesUtf8.
Import ListNotations.

Definition valid_utf8 (s : list byte) : Prop := exists cs, valid_str cs /\ s = encode cs.

(* the parent string is valid UTF-8, start() and end() are boundaries inside it, in order
   (all three forms: FStr has start 0 / end len, FPos start a / end len, FSpan start a / end b) *)
Definition good_inp (I : inp) : Prop :=
  valid_utf8 (parent I) /\
  is_boundary (parent I) (i_start I) = true /\
  is_boundary (parent I) (i_end I) = true /\
  i_start I <= i_end I <= length (parent I).

Definition good_cur (I : inp) (c : nat) : Prop :=
  is_boundary (parent I) c = true /\ i_start I <= c <= i_end I.

Definition good_span (I : inp) (sp : nat * nat) : Prop :=
  good_cur I (fst sp) /\ good_cur I (snd sp) /\ fst sp <= snd sp.

Definition ret_good (I : inp) (c : nat) (m : mres (option nat)) : Prop :=
  exists o, m = MOk o /\ forall c', o = Some c' -> c <= c' /\ good_cur I c'.

Lemma encode_prefix_inv ts : valid_str ts -> forall m r,
  valid_str m -> encode m = encode ts ++ r -> exists m2, m = ts ++ m2.
Proof.
  induction ts as [|t ts IH]; intros Hts m r Hm He; [exists m; reflexivity|].
  rewrite encode_cons, <- app_assoc in He. destruct m as [|x m'].
  - destruct (enc_shape t) as (b & tl & Hb & _). rewrite Hb in He. discriminate.
  - (* both sides start with a whole character: [dec1] reads the same one off either *)
    rewrite encode_cons in He. pose proof (f_equal dec1 He) as Hd.
    rewrite (dec1_enc x _ (Forall_inv Hm)), (dec1_enc t _ (Forall_inv Hts)) in Hd. injection Hd as ->.
    apply app_inv_head in He.
    destruct (IH (Forall_inv_tail Hts) m' r (Forall_inv_tail Hm) He) as [m2 ->]. exists m2. reflexivity.
Qed.

Lemma is_prefix_encode ts m : valid_str ts -> valid_str m ->
  is_prefix (encode ts) (encode m) = true -> exists m2, m = ts ++ m2.
Proof.
  intros Hts Hm Hp. apply is_prefix_app in Hp. destruct Hp as [r Hr].
  eapply encode_prefix_inv; eassumption.
Qed.

Lemma boundary_split cs p : valid_str cs ->
  p <= length (encode cs) -> is_boundary (encode cs) p = true ->
  exists a b, cs = a ++ b /\ p = length (encode a).
Proof.
  intros Hv Hp Hb. destruct (boundary_is_prefix cs Hv p Hp Hb) as (k & Hk & ->).
  exists (firstn k cs), (skipn k cs). split; [symmetry; apply firstn_skipn|reflexivity].
Qed.

Lemma two_boundaries cs c e : valid_str cs ->
  c <= e <= length (encode cs) ->
  is_boundary (encode cs) c = true -> is_boundary (encode cs) e = true ->
  exists a m b, cs = a ++ m ++ b /\ c = length (encode a) /\ e = length (encode a) + length (encode m).
Proof.
  intros Hv [Hce He] Hbc Hbe.
  destruct (boundary_split cs c Hv (Nat.le_trans _ _ _ Hce He) Hbc) as (a & r & -> & ->).
  apply Nat.le_exists_sub in Hce as (j & -> & _). rewrite Nat.add_comm in Hbe, He |- *.
  rewrite encode_length_app in He. apply Nat.add_le_mono_l in He.
  rewrite encode_app, <- (app_nil_r (encode r)) in Hbe. apply is_boundary_inner in Hbe; [|exact He].
  destruct (boundary_split r j (proj2 (proj1 (valid_app a r) Hv)) He Hbe) as (m & b & -> & ->).
  exists a, m, b. repeat split.
Qed.

Definition cur_view (I : inp) (c : nat) (a m b : list char) : Prop :=
  valid_str (a ++ m ++ b) /\ parent I = encode (a ++ m ++ b) /\
  c = length (encode a) /\ i_end I = length (encode a) + length (encode m).

Lemma good_cur_end I : good_inp I -> good_cur I (i_end I).
Proof. intros (_ & _ & He & Hr). exact (conj He (conj (proj1 Hr) (le_n _))). Qed.

Lemma good_cur_start I : good_inp I -> good_cur I (i_start I).
Proof. intros (_ & Hs & _ & Hr). exact (conj Hs (conj (le_n _) (proj1 Hr))). Qed.

Lemma good_span_view I x y : good_inp I -> good_cur I x -> good_cur I y -> x <= y ->
  exists a m b, valid_str (a ++ m ++ b) /\ parent I = encode (a ++ m ++ b) /\
                x = length (encode a) /\ y = length (encode a) + length (encode m).
Proof.
  intros ((cs & Hv & Hp) & _ & _ & _ & Hr) (Hbx & _) (Hby & _ & Hy) Hxy. rewrite Hp in Hbx, Hby, Hr.
  destruct (two_boundaries cs x y Hv (conj Hxy (Nat.le_trans _ _ _ Hy Hr)) Hbx Hby) as (a & m & b & -> & Hxa & Hya).
  exists a, m, b. exact (conj Hv (conj Hp (conj Hxa Hya))).
Qed.

Lemma good_cur_view I c : good_inp I -> good_cur I c -> exists a m b, cur_view I c a m b.
Proof. intros HI Hc. exact (good_span_view I c (i_end I) HI Hc (good_cur_end I HI) (proj2 (proj2 Hc))). Qed.

Lemma view_valid I c a m b : cur_view I c a m b -> valid_str a /\ valid_str m /\ valid_str b.
Proof.
  intros (Hv & _). apply valid_app in Hv as [Ha Hv]. apply valid_app in Hv as [Hm Hb]. exact (conj Ha (conj Hm Hb)).
Qed.

Lemma view_get I c a m b : cur_view I c a m b -> i_get I c = MOk (encode m).
Proof.
  intros (Hv & Hp & Hc & He). unfold i_get. rewrite slice_checked_opt, Hp, Hc, He.
  rewrite (slice_opt_mid a m b Hv). reflexivity.
Qed.

Lemma view_advance I c a m1 m2 b :
  i_start I <= c -> cur_view I c a (m1 ++ m2) b -> good_cur I (c + length (encode m1)).
Proof.
  intros Hs (Hv & Hp & -> & He). unfold good_cur. rewrite Hp, He, encode_length_app.
  split; [|split; [exact (Nat.le_trans _ _ _ Hs (Nat.le_add_r _ _))|apply Nat.add_le_mono_l, Nat.le_add_r]].
  rewrite <- app_assoc in *. apply boundary_mid. exact Hv.
Qed.

Lemma view_slice I c a m1 m2 b :
  cur_view I c a (m1 ++ m2) b -> slice_opt (parent I) c (c + length (encode m1)) = Some (encode m1).
Proof.
  intros (Hv & Hp & Hc & _). rewrite <- app_assoc in Hv, Hp. rewrite Hp, Hc. exact (slice_opt_mid a m1 (m2 ++ b) Hv).
Qed.

Lemma view_advance_view I c a m1 m2 b :
  cur_view I c a (m1 ++ m2) b -> cur_view I (c + length (encode m1)) (a ++ m1) m2 b.
Proof.
  intros (Hv & Hp & -> & He). unfold cur_view. rewrite <- !app_assoc in *.
  split; [exact Hv|]. split; [exact Hp|]. split; [symmetry; apply encode_length_app|].
  rewrite He, !encode_length_app. apply Nat.add_assoc.
Qed.

Lemma view_step {I pos a x m' b} : cur_view I pos a (x :: m') b ->
  cur_view I (pos + len_utf8 x) (a ++ [x]) m' b.
Proof.
  intros Hv. change (x :: m') with ([x] ++ m') in Hv.
  apply view_advance_view in Hv. rewrite encode_length_cons in Hv. cbn [encode flat_map length] in Hv.
  rewrite Nat.add_0_r in Hv. exact Hv.
Qed.

Lemma view_end {I pos a m b} : cur_view I pos a m b -> i_end I = pos + length (encode m).
Proof. intros (_ & _ & -> & ->). reflexivity. Qed.

Lemma view_hit {I} ss {pos a m b} : cur_view I pos a m b ->
  su_hit I true ss pos = existsb (fun s => is_prefix s (encode m)) ss.
Proof.
  intros (Hv & Hp & Hc & He). unfold su_hit. rewrite Hp, Hc, He, (slice_opt_mid a m b Hv). reflexivity.
Qed.

Lemma view_inside {I pos a x m' b} q : cur_view I pos a (x :: m') b ->
  pos < q < pos + len_utf8 x -> is_boundary (parent I) q = false.
Proof.
  intros (Hv & -> & -> & _) Hq. replace q with (length (encode a) + (q - length (encode a))) by lia.
  change ((x :: m') ++ b) with (x :: (m' ++ b)) in *. apply boundary_inside; [exact Hv|lia].
Qed.

Lemma get_good I c : good_inp I -> good_cur I c ->
  exists rs, valid_str rs /\ i_get I c = MOk (encode rs).
Proof.
  intros HI Hc. destruct (good_cur_view I c HI Hc) as (a & m & b & Hview).
  exists m. split; [apply (view_valid _ _ _ _ _ Hview)|apply (view_get _ _ _ _ _ Hview)].
Qed.

(* an operation that looks at the remaining text and advances over a character prefix of it *)
Lemma advance_good I c (g : list byte -> option nat) : good_inp I -> good_cur I c ->
  (forall m c', valid_str m -> g (encode m) = Some c' ->
     exists m1 m2, m = m1 ++ m2 /\ c' = c + length (encode m1)) ->
  ret_good I c (mbind (i_get I c) (fun rest => MOk (g rest))).
Proof.
  intros HI Hc Hg. destruct (good_cur_view I c HI Hc) as (a & m & b & Hview).
  rewrite (view_get _ _ _ _ _ Hview). eexists. split; [reflexivity|]. intros c' Ho.
  destruct (Hg m c' (proj1 (proj2 (view_valid _ _ _ _ _ Hview))) Ho) as (m1 & m2 & -> & ->).
  split; [apply Nat.le_add_r|exact (view_advance I c a m1 m2 b (proj1 (proj2 Hc)) Hview)].
Qed.

Lemma match_string_good I t c : good_inp I -> good_cur I c -> valid_utf8 t ->
  ret_good I c (i_match_string I t c).
Proof.
  intros HI Hc (ts & Hts & ->). apply advance_good; [exact HI|exact Hc|]. intros m c' Hm Ho.
  destruct (is_prefix (encode ts) (encode m)) eqn:Hp; [|discriminate]. injection Ho as <-.
  destruct (is_prefix_encode ts m Hts Hm Hp) as [m2 ->]. exists ts, m2. split; reflexivity.
Qed.

(* no hypothesis on the needle: the code takes the candidate with the checked `get(..len)` *)
Lemma match_insens_good I t c : good_inp I -> good_cur I c ->
  ret_good I c (i_match_insens I t c).
Proof.
  intros HI Hc. apply advance_good; [exact HI|exact Hc|]. intros m c' Hm Ho.
  destruct (slice_opt (encode m) 0 (length t)) as [pre|] eqn:Hs; [|discriminate].
  destruct (eq_ignore_case pre t); [|discriminate]. injection Ho as <-.
  apply slice_opt_some in Hs as ((_ & Hr & _ & Hb) & _).
  destruct (boundary_split m (length t) Hm Hr Hb) as (m1 & m2 & -> & Hl).
  exists m1, m2. rewrite Hl. split; reflexivity.
Qed.

Lemma skip_chars_len_spec n : forall m acc l, valid_str m ->
  skip_chars_len (encode m) n acc = Some l ->
  exists m1 m2, m = m1 ++ m2 /\ l = acc + length (encode m1).
Proof.
  induction n as [|n IH]; intros m acc l Hm H; cbn [skip_chars_len] in H.
  - injection H as <-. exists [], m. split; [reflexivity|symmetry; apply Nat.add_0_r].
  - destruct m as [|x m']; [discriminate|].
    rewrite encode_cons, (dec1_enc x _ (Forall_inv Hm)), skipn_enc in H.
    destruct (IH m' _ l (Forall_inv_tail Hm) H) as (m1 & m2 & -> & ->).
    exists (x :: m1), m2. split; [reflexivity|]. rewrite encode_length_cons. symmetry. apply Nat.add_assoc.
Qed.

Lemma skip_good I n c : good_inp I -> good_cur I c -> ret_good I c (i_skip I n c).
Proof.
  intros HI Hc. apply advance_good; [exact HI|exact Hc|]. intros m c' Hm Ho.
  destruct (skip_chars_len (encode m) n 0) as [l|] eqn:Hs; [|discriminate]. injection Ho as <-.
  destruct (skip_chars_len_spec n m 0 l Hm Hs) as (m1 & m2 & -> & ->). exists m1, m2. split; reflexivity.
Qed.

Lemma match_char_good I f c : good_inp I -> good_cur I c ->
  exists o, i_match_char I f c = MOk o /\
    forall c' ch, o = Some (c', ch) ->
      c < c' /\ c' = c + len_utf8 ch /\ good_cur I c' /\ valid_char ch = true /\
      i_span I c c' = MOk (c, c') /\ span_str I (c, c') = MOk (enc ch).
Proof.
  intros HI Hc. destruct (good_cur_view I c HI Hc) as (a & m & b & Hview).
  unfold i_match_char. rewrite (view_get _ _ _ _ _ Hview). cbn [mbind].
  eexists. split; [reflexivity|]. intros c' ch Ho.
  destruct (view_valid _ _ _ _ _ Hview) as (_ & Hm & _).
  destruct m as [|x m']; [discriminate|].
  rewrite encode_cons, (dec1_enc x _ (Forall_inv Hm)) in Ho.
  destruct (f x); [|discriminate]. injection Ho as <- <-.
  change (x :: m') with ([x] ++ m') in Hview.
  pose proof (view_advance I c a [x] m' b (proj1 (proj2 Hc)) Hview) as Hadv.
  pose proof (view_slice I c a [x] m' b Hview) as Hs.
  assert (Hx : encode [x] = enc x) by apply app_nil_r. rewrite Hx, enc_length in Hadv, Hs.
  split; [exact (Nat.lt_add_pos_r _ _ (len_utf8_pos x))|]. split; [reflexivity|]. split; [exact Hadv|].
  split; [exact (Forall_inv Hm)|]. unfold i_span, span_str. cbn [fst snd]. rewrite slice_checked_opt, Hs.
  split; reflexivity.
Qed.

Lemma skip_until_good I ss c : good_inp I -> good_cur I c ->
  c <= snd (i_skip_until I true ss c) /\ good_cur I (snd (i_skip_until I true ss c)).
Proof.
  intros HI Hc. unfold i_skip_until. pose proof (su_scan_spec I true ss (i_end I - c) c) as Hs.
  destruct (su_scan I true ss c (i_end I - c)) as [p|]; cbn [snd].
  - (* a hit at [p] means that the text from [p] to end() could be sliced, so [p] is a boundary *)
    destruct Hs as ((Hle & _) & Hh & _). unfold su_hit in Hh.
    destruct (slice_opt (parent I) p (i_end I)) as [bytes|] eqn:Hb; [|discriminate].
    apply slice_opt_some in Hb as ((Hr & _ & Hbp & _) & _).
    exact (conj Hle (conj Hbp (conj (Nat.le_trans _ _ _ (proj1 (proj2 Hc)) Hle) Hr))).
  - split; [apply Hc|apply good_cur_end; exact HI].
Qed.

Lemma span_good I x y : good_inp I -> good_cur I x -> good_cur I y -> x <= y ->
  i_span I x y = MOk (x, y) /\
  exists ms, valid_str ms /\ span_str I (x, y) = MOk (encode ms).
Proof.
  intros HI Hx Hy Hxy.
  destruct (good_span_view I x y HI Hx Hy Hxy) as (a & m & b & Hv & Hp & Hxa & Hya).
  pose proof (slice_opt_mid a m b Hv) as Hs. rewrite <- Hp, <- Hya, <- Hxa in Hs.
  split.
  - unfold i_span. rewrite Hs. reflexivity.
  - exists m. split.
    + apply valid_app in Hv as [_ Hv]. apply valid_app in Hv as [Hm _]. exact Hm.
    + unfold span_str. cbn [fst snd]. rewrite slice_checked_opt, Hs. reflexivity.
Qed.

Lemma span_str_good I sp : good_inp I -> good_span I sp ->
  exists txt, span_str I sp = MOk txt /\ valid_utf8 txt.
Proof.
  intros HI (Hx & Hy & Hxy). destruct sp as [x y]. cbn [fst snd] in *.
  destruct (span_good I x y HI Hx Hy Hxy) as (_ & ms & Hms & Hs).
  exists (encode ms). split; [exact Hs|]. exists ms. split; [exact Hms|reflexivity].
Qed.

Lemma i_span_good I x y : good_inp I -> good_cur I x -> good_cur I y -> x <= y ->
  i_span I x y = MOk (x, y).
Proof. intros HI Hx Hy Hxy. apply (span_good I x y HI Hx Hy Hxy). Qed.

Lemma good_inp_str cs : valid_str cs -> good_inp (inp_of_str (encode cs)).
Proof.
  intros Hv. unfold good_inp, inp_of_str, i_start, i_end. cbn [parent form istart iend].
  split; [exists cs; split; [exact Hv|reflexivity]|].
  split; [reflexivity|]. split; [apply is_boundary_length|exact (conj (Nat.le_0_l _) (le_n _))].
Qed.

Lemma matchers_good : forall I c, good_inp I -> good_cur I c ->
  (exists rs, valid_str rs /\ i_get I c = MOk (encode rs)) /\
  (forall t, valid_utf8 t -> ret_good I c (i_match_string I t c)) /\
  (forall t, ret_good I c (i_match_insens I t c)) /\
  (forall n, ret_good I c (i_skip I n c)) /\
  (forall f, exists o, i_match_char I f c = MOk o /\
     forall c' ch, o = Some (c', ch) -> c < c' /\ good_cur I c' /\ c' = c + len_utf8 ch) /\
  (forall ss, c <= snd (i_skip_until I true ss c) /\ good_cur I (snd (i_skip_until I true ss c))) /\
  (forall y, good_cur I y -> c <= y ->
     i_span I c y = MOk (c, y) /\ exists txt, span_str I (c, y) = MOk txt /\ valid_utf8 txt).
Proof.
  intros I c HI Hc. repeat apply conj.
  - apply get_good; assumption.
  - intros t Ht. apply match_string_good; assumption.
  - intros t. apply match_insens_good; assumption.
  - intros n. apply skip_good; assumption.
  - intros f. destruct (match_char_good I f c HI Hc) as (o & Ho & H). exists o. split; [exact Ho|].
    intros c' ch Hs. destruct (H c' ch Hs) as (H1 & H2 & H3 & _). exact (conj H1 (conj H3 H2)).
  - intros ss. apply skip_until_good; assumption.
  - intros y Hy Hle. split; [apply i_span_good; assumption|].
    apply span_str_good; [exact HI|exact (conj Hc (conj Hy Hle))].
Qed.
