(* The reachability analysis behind `box_only_if_needed` (Model/Boxing.v): boxing_invariant, boxing_sound,
   boxing_minimal, restated in Properties/C20.v.  The mention graph restricted to the remaining keys (= unboxed
   rules) is acyclic for EVERY rule list: the cap of `rules.len()` rounds is always enough.
   Proof idea for the cap: after t rounds, for every mention path x0 -> x1 -> .. -> xj with j <= t+1 whose
   nodes x0..x(j-1) are all still keys, xj is in the entry of x0 ([CoverP]).  A round that changes nothing
   leaves a map that is closed under absorption among the remaining keys, which gives the same for all j.
   A cycle through remaining keys contains a simple one, of length <= number of rules (pigeonhole), hence
   some remaining x would be in its own entry; but an entry is re-inserted only if it does not contain its key. *)
From Coq Require Import List NArith Arith Bool Lia.
From PT Require Import Model.Ast Model.Boxing Proofs.ListFacts.
Import ListNotations.

(* [nunion] and [absorb] are both [fold_left]s of a step that only adds members *)
Lemma fold_left_inv {A B} (P : A -> Prop) (f : A -> B -> A) :
  (forall a b, P a -> P (f a b)) -> forall l a, P a -> P (fold_left f l a).
Proof. intros Hf. induction l as [|b l IH]; intros a Ha; [exact Ha|]. apply IH, Hf, Ha. Qed.

Lemma fold_left_ext {A B} (f : list A -> B -> list A) :
  (forall s b, exists e, f s b = s ++ e) -> forall l s, exists e, fold_left f l s = s ++ e.
Proof.
  intros Hf. induction l as [|b l IH]; intros s; cbn [fold_left]; [exists []; symmetry; apply app_nil_r|].
  destruct (IH (f s b)) as [e' ->]. destruct (Hf s b) as [e ->]. exists (e ++ e'). symmetry. apply app_assoc.
Qed.

Lemma fold_left_In {A B} (f : list A -> B -> list A) (Q : B -> A -> Prop) :
  (forall s b y, In y (f s b) <-> In y s \/ Q b y) ->
  forall l s y, In y (fold_left f l s) <-> In y s \/ exists b, In b l /\ Q b y.
Proof.
  intros Hf l s y. rewrite <- Exists_exists. revert s.
  induction l as [|b l IH]; intros s; cbn [fold_left].
  - rewrite Exists_nil. split; [left; assumption|intros [H|[]]; exact H].
  - rewrite IH, Hf, Exists_cons. apply or_assoc.
Qed.

Lemma nmem_In x s : nmem x s = true <-> In x s.
Proof.
  unfold nmem. rewrite existsb_exists. split.
  - intros (y & Hy & He). apply N.eqb_eq in He. subst y. exact Hy.
  - intros H. exists x. split; [exact H | apply N.eqb_refl].
Qed.

Lemma nadd_ext x s : exists e, nadd x s = s ++ e.
Proof. unfold nadd. destruct (nmem x s); [exists []; symmetry; apply app_nil_r|exists [x]; reflexivity]. Qed.

Lemma nadd_In x s y : In y (nadd x s) <-> In y s \/ x = y.
Proof.
  unfold nadd. destruct (nmem x s) eqn:H.
  - apply nmem_In in H. split; [left; assumption|intros [Hy|<-]; assumption].
  - rewrite in_app_iff. cbn [In]. split; [intros [Hy|[Hy|[]]]|intros [Hy|Hy]]; auto.
Qed.

Lemma nadd_NoDup x s : NoDup s -> NoDup (nadd x s).
Proof.
  intros Hs. unfold nadd. destruct (nmem x s) eqn:H; [exact Hs|].
  apply NoDup_snoc; [exact Hs|]. rewrite <- nmem_In, H. discriminate.
Qed.

Lemma nunion_ext s t : exists e, nunion s t = s ++ e.
Proof. apply fold_left_ext. intros a b. apply nadd_ext. Qed.

Lemma nunion_In s t y : In y (nunion s t) <-> In y s \/ In y t.
Proof.
  unfold nunion. rewrite (fold_left_In _ eq) by (intros; apply nadd_In).
  split; (intros [H|H]; [left; exact H|right]); [destruct H as (b & Hb & <-); exact Hb|exists y; split; [exact H|reflexivity]].
Qed.

Lemma nunion_NoDup s t : NoDup s -> NoDup (nunion s t).
Proof. apply fold_left_inv. intros a b. apply nadd_NoDup. Qed.

Lemma mlookup_mremove k m x : mlookup x (mremove k m) = if N.eqb x k then None else mlookup x m.
Proof.
  induction m as [|[k' v] m IH]; cbn [mremove mlookup]; [destruct (N.eqb x k); reflexivity|].
  destruct (N.eqb_spec k k') as [<-|E1]; cbn [mlookup]; rewrite IH; [destruct (N.eqb x k); reflexivity|].
  destruct (N.eqb_spec x k') as [->|E3]; [|reflexivity].
  destruct (N.eqb_spec k' k) as [E|_]; [symmetry in E; contradiction|reflexivity].
Qed.

Lemma mlookup_minsert k v m x : mlookup x (minsert k v m) = if N.eqb x k then Some v else mlookup x m.
Proof.
  unfold minsert. cbn [mlookup]. destruct (N.eqb x k) eqn:E; [reflexivity|].
  rewrite mlookup_mremove, E. reflexivity.
Qed.

Definition present (x : N) (m : amap) : Prop := exists s, mlookup x m = Some s.

Lemma mkeys_present m x : In x (mkeys m) <-> present x m.
Proof.
  unfold present, mkeys. induction m as [|[k v] m IH]; cbn [map In fst mlookup].
  - split; [intros [] | intros [s Hs]; discriminate].
  - rewrite IH. destruct (N.eqb_spec x k) as [->|E].
    + split; [intros _; exists v; reflexivity | intros _; left; reflexivity].
    + split; [intros [Hk|Hk]; [symmetry in Hk; contradiction|exact Hk]|intros Hk; right; exact Hk].
Qed.

Definition medge (m : amap) (x y : N) : Prop := exists s, mlookup x m = Some s /\ In y s.

Lemma medge_mremove k m x y : medge (mremove k m) x y <-> x <> k /\ medge m x y.
Proof.
  unfold medge. rewrite mlookup_mremove. destruct (N.eqb_spec x k) as [->|E].
  - split; [intros (s & Hs & _); discriminate|intros [H _]; contradiction].
  - split; [intros H; split; assumption|intros [_ H]; exact H].
Qed.

Lemma absorb_In res cur y : In y (absorb res cur) <-> In y cur \/ exists m, In m cur /\ medge res m y.
Proof.
  apply fold_left_In. intros s m z. unfold medge. destruct (mlookup m res) as [sm|].
  - rewrite nunion_In. split; (intros [H|H]; [left; exact H|right]); [exists sm; split; [reflexivity|exact H]|].
    destruct H as (s' & [= <-] & H). exact H.
  - split; [left; assumption|intros [H|(s' & Hs & _)]; [exact H|discriminate]].
Qed.

Lemma absorb_nogrow res cur : (length cur <? length (absorb res cur)) = false -> absorb res cur = cur.
Proof.
  assert (He : exists e, absorb res cur = cur ++ e).
  { apply fold_left_ext. intros s m. destruct (mlookup m res); [apply nunion_ext|exists []; symmetry; apply app_nil_r]. }
  destruct He as [e ->]. rewrite app_length, Nat.ltb_ge. destruct e; [intros _; apply app_nil_r|cbn [length]; lia].
Qed.

Lemma absorb_NoDup res cur : NoDup cur -> NoDup (absorb res cur).
Proof. apply fold_left_inv. intros a m Ha. destruct (mlookup m res); [apply nunion_NoDup|]; exact Ha. Qed.

(* what the step for [name] puts into its entry [cur]: the entries of the other keys among its members *)
Definition absorbed (res : amap) (name : N) (cur : nset) (y : N) : Prop :=
  In y cur \/ exists m, In m cur /\ m <> name /\ medge res m y.

Definition step_rel (res : amap) (name : N) (res' : amap) (grew : bool) : Prop :=
  (forall x, x <> name -> mlookup x res' = mlookup x res) /\
  (forall s, mlookup name res' = Some s ->
     exists cur, mlookup name res = Some cur /\ (forall y, In y s <-> absorbed res name cur y) /\ ~ In name s /\
                 (grew = false -> s = cur) /\ (NoDup cur -> NoDup s)) /\
  (* a key is dropped only when it has reached itself *)
  (forall cur, mlookup name res = Some cur -> mlookup name res' = None -> absorbed res name cur name).

Lemma step_spec res upd name :
  exists res' grew, reach_step (res, upd) name = (res', upd || grew) /\ step_rel res name res' grew.
Proof.
  unfold reach_step. destruct (mlookup name res) as [cur|] eqn:Hl.
  - set (new := absorb (mremove name res) cur).
    assert (Hnew : forall y, In y new <-> absorbed res name cur y).
    { intros y. unfold new, absorbed. rewrite absorb_In. split; (intros [H|(m & Hm & H)]; [left; exact H|right; exists m]).
      - apply medge_mremove in H. split; [exact Hm|exact H].
      - split; [exact Hm|apply medge_mremove; exact H]. }
    eexists _, (length cur <? length new). split; [reflexivity|].
    assert (Hoth : forall x, x <> name -> mlookup x (mremove name res) = mlookup x res).
    { intros x Hx%N.eqb_neq. rewrite mlookup_mremove, Hx. reflexivity. }
    destruct (nmem name new) eqn:Hm; (split; [|split]).
    + exact Hoth.
    + intros s. rewrite mlookup_mremove, N.eqb_refl. discriminate.
    + intros cur' Hc _. rewrite Hl in Hc. injection Hc as <-. apply Hnew, nmem_In, Hm.
    + intros x Hx. rewrite mlookup_minsert, (proj2 (N.eqb_neq x name) Hx). exact (Hoth x Hx).
    + intros s. rewrite mlookup_minsert, N.eqb_refl. intros [= <-]. exists cur.
      split; [exact Hl|]. split; [exact Hnew|]. split; [rewrite <- nmem_In, Hm; discriminate|].
      split; [apply absorb_nogrow|apply absorb_NoDup].
    + intros cur' _. rewrite mlookup_minsert, N.eqb_refl. discriminate.
  - exists res, false. split; [rewrite orb_false_r; reflexivity|].
    split; [reflexivity|]. split; [intros s Hs|intros cur Hc]; congruence.
Qed.

Lemma step_present res name res' g x : step_rel res name res' g -> present x res' -> present x res.
Proof.
  intros (Hoth & Hat & _) [s Hs]. destruct (N.eq_dec x name) as [->|Hne].
  - destruct (Hat s Hs) as (cur & Hc & _). exists cur. exact Hc.
  - rewrite (Hoth x Hne) in Hs. exists s. exact Hs.
Qed.

Lemma chain_app E l1 : forall x z l2 y, chain E x (l1 ++ z :: l2) y <-> chain E x l1 z /\ chain E z l2 y.
Proof.
  induction l1 as [|a l1 IH]; intros x z l2 y; cbn [app chain]; [reflexivity|]. rewrite IH. symmetry. apply and_assoc.
Qed.

Lemma chain_mono (E E' : N -> N -> Prop) : (forall a b, E a b -> E' a b) ->
  forall l x y, chain E x l y -> chain E' x l y.
Proof.
  intros HE. induction l as [|z l IH]; intros x y; cbn [chain]; [apply HE|].
  intros [H1 H2]. split; [apply HE, H1 | apply IH, H2].
Qed.

Definition reachp (E : N -> N -> Prop) (x y : N) : Prop := exists l, chain E x l y.

Lemma reachp_trans E x y z : reachp E x y -> reachp E y z -> reachp E x z.
Proof. intros [l1 H1] [l2 H2]. exists (l1 ++ y :: l2). apply chain_app. split; assumption. Qed.

Lemma NoDup_suffix (l1 l2 : list N) : NoDup (l1 ++ l2) -> NoDup l2.
Proof. induction l1 as [|a l1 IH]; [exact (fun H => H)|]. intros [_ H]%NoDup_cons_iff. exact (IH H). Qed.

Lemma chain_shorten E : forall l x y, chain E x l y ->
  exists l', chain E x l' y /\ NoDup (x :: l') /\ incl l' l.
Proof.
  induction l as [|z l IH]; intros x y H.
  - exists []. split; [exact H|]. split; [constructor; [intros []|constructor] | apply incl_refl].
  - destruct H as [Hxz Hc]. destruct (IH z y Hc) as (l' & Hc' & Hnd & Hin).
    destruct (in_dec N.eq_dec x (z :: l')) as [Hi|Hn].
    + (* x occurs again: continue from there *)
      destruct (in_split _ _ Hi) as (l1 & l2 & Heq). exists l2. split; [|split].
      * destruct l1 as [|a l1]; injection Heq as -> ->; [exact Hc'|]. apply chain_app in Hc'. apply Hc'.
      * rewrite Heq in Hnd. exact (NoDup_suffix _ _ Hnd).
      * intros a Ha. apply (incl_cons (in_eq z l) (incl_tl z Hin)). rewrite Heq. apply in_or_app. right. right. exact Ha.
    + exists (z :: l'). split; [split; assumption|]. split; [constructor; assumption|].
      apply incl_cons; [left; reflexivity|apply incl_tl, Hin].
Qed.

Section Inv.
  Variable init : amap.
  Variable names : list N.

  Definition Basic (res : amap) : Prop :=
    (forall x, present x res -> present x init) /\
    (forall x s y, mlookup x res = Some s -> In y s -> reachp (medge init) x y) /\
    (forall x, present x init -> ~ reachp (medge init) x x -> present x res) /\
    (forall x s, mlookup x res = Some s -> NoDup s).

  (* t = number of completed rounds, P = names already processed in the running round *)
  Definition CoverP (t : nat) (P : list N) (res : amap) : Prop :=
    (forall x l y s, chain (medge init) x l y -> mlookup x res = Some s ->
        (forall z, In z l -> present z res) ->
        (length l <= t \/ (length l <= S t /\ In x P)) -> In y s) /\
    (forall x s, (In x P \/ 1 <= t) -> mlookup x res = Some s -> ~ In x s).

  Lemma step_Basic res name res' g : step_rel res name res' g -> Basic res -> Basic res'.
  Proof.
    intros Hst (B1 & B2 & B3 & B4). pose proof Hst as (Hoth & Hat & Hdrop).
    assert (Habs : forall cur y, mlookup name res = Some cur -> absorbed res name cur y -> reachp (medge init) name y).
    { intros cur y Hc [Hy|(m & Hm & _ & sm & Hsm & Hy)]; [exact (B2 _ _ _ Hc Hy)|].
      exact (reachp_trans _ _ _ _ (B2 _ _ _ Hc Hm) (B2 _ _ _ Hsm Hy)). }
    split; [|split; [|split]].
    - intros x Hx. exact (B1 x (step_present _ _ _ _ _ Hst Hx)).
    - intros x s y Hs Hy. destruct (N.eq_dec x name) as [->|Hne]; [|rewrite (Hoth x Hne) in Hs; exact (B2 _ _ _ Hs Hy)].
      destruct (Hat s Hs) as (cur & Hc & Hnew & _). apply (Habs cur y Hc), Hnew, Hy.
    - intros x Hx Hnr. destruct (B3 x Hx Hnr) as [s Hs].
      destruct (N.eq_dec x name) as [->|Hne]; [|exists s; rewrite (Hoth x Hne); exact Hs].
      destruct (mlookup name res') as [s'|] eqn:Hs'; [exists s'; exact Hs'|].
      destruct Hnr. exact (Habs s name Hs (Hdrop s Hs eq_refl)).
    - intros x s Hs. destruct (N.eq_dec x name) as [->|Hne]; [|rewrite (Hoth x Hne) in Hs; exact (B4 x s Hs)].
      destruct (Hat s Hs) as (cur & Hc & _ & _ & _ & Hnd). exact (Hnd (B4 _ _ Hc)).
  Qed.

  Lemma step_CoverP t P res name res' g :
    step_rel res name res' g -> CoverP t P res -> CoverP t (name :: P) res'.
  Proof.
    intros Hst [C1 C2]. pose proof Hst as (Hoth & Hat & _). split.
    - intros x l y s Hch Hs Hpres Hlen.
      assert (Hpres0 : forall z, In z l -> present z res).
      { intros z Hz. exact (step_present _ _ _ _ _ Hst (Hpres z Hz)). }
      destruct (N.eq_dec x name) as [->|Hne].
      + destruct (Hat s Hs) as (cur & Hc & Hnew & Hself & _). apply Hnew.
        destruct (le_dec (length l) t) as [Hle|Hgt]; [left; exact (C1 _ _ _ _ Hch Hc Hpres0 (or_introl Hle))|].
        (* a path one longer than what is covered: its first step z is in cur, and the rest is covered from z *)
        destruct l as [|z l']; [destruct Hgt; apply Nat.le_0_l|]. destruct Hch as [Hxz Hch'].
        assert (Hzcur : In z cur) by (apply (C1 name [] z cur Hxz Hc); [intros z0 []|left; apply Nat.le_0_l]).
        destruct (Hpres0 z (or_introl eq_refl)) as [sz Hsz].
        right. exists z. split; [exact Hzcur|]. split; [intros ->; apply Hself, Hnew; left; exact Hzcur|].
        exists sz. split; [exact Hsz|]. apply (C1 z l' y sz Hch' Hsz); [intros z0 Hz0; apply Hpres0; right; exact Hz0|].
        left. cbn [length] in Hlen, Hgt. lia.
      + rewrite (Hoth x Hne) in Hs. apply (C1 x l y s Hch Hs Hpres0).
        destruct Hlen as [Hlen|[Hlen [Hx|Hx]]]; [left; exact Hlen|symmetry in Hx; contradiction|right; split; assumption].
    - intros x s Hx Hs. destruct (N.eq_dec x name) as [->|Hne]; [destruct (Hat s Hs) as (_ & _ & _ & Hself & _); exact Hself|].
      rewrite (Hoth x Hne) in Hs. apply (C2 x s); [|exact Hs].
      destruct Hx as [[Hx|Hx]|Hx]; [symmetry in Hx; contradiction|left; exact Hx|right; exact Hx].
  Qed.

  Lemma fold_inv : forall l P res upd res' upd' t,
    Basic res -> CoverP t P res ->
    fold_left reach_step l (res, upd) = (res', upd') ->
    Basic res' /\ CoverP t (rev l ++ P) res'.
  Proof.
    induction l as [|a l IH]; intros P res upd res' upd' t HB HC H; cbn [fold_left] in H.
    - injection H as <- _. split; assumption.
    - destruct (step_spec res upd a) as (res1 & g & Heq & Hst). rewrite Heq in H.
      cbn [rev]. rewrite <- app_assoc.
      exact (IH (a :: P) _ _ _ _ t (step_Basic _ _ _ _ Hst HB) (step_CoverP _ _ _ _ _ _ Hst HC) H).
  Qed.

  Lemma round_inv t res res' upd :
    (forall x, present x init -> In x names) ->
    Basic res -> CoverP t [] res -> reach_round names res = (res', upd) ->
    Basic res' /\ CoverP (S t) [] res'.
  Proof.
    intros Hnames HB HC H.
    destruct (fold_inv names [] res false res' upd t HB HC H) as [HB' [C1 C2]]. split; [exact HB'|].
    (* after the round every remaining key has been processed *)
    assert (Hproc : forall x s, mlookup x res' = Some s -> In x (rev names ++ [])).
    { intros x s Hs. rewrite app_nil_r, <- in_rev. apply Hnames, (proj1 HB'). exists s. exact Hs. }
    split.
    - intros x l y s Hch Hs Hpres Hlen. apply (C1 x l y s Hch Hs Hpres).
      right. split; [destruct Hlen as [Hlen|[_ []]]; exact Hlen | exact (Hproc x s Hs)].
    - intros x s _ Hs. exact (C2 x s (or_introl (Hproc x s Hs)) Hs).
  Qed.

  (* a round that changes nothing: the map is closed under absorption among its keys *)
  Definition Closed (P : list N) (res : amap) : Prop :=
    forall x s m sm, In x P -> mlookup x res = Some s -> In m s -> mlookup m res = Some sm -> incl sm s.

  Lemma step_Closed P res a res1 :
    step_rel res a res1 false -> Closed P res -> Closed (a :: P) res1.
  Proof.
    intros (Hoth & Hat & _) HC x s m sm Hx Hs Hm Hsm.
    assert (Hsub : forall k v, mlookup k res1 = Some v -> mlookup k res = Some v).
    { intros k v Hk. destruct (N.eq_dec k a) as [->|Hne]; [|rewrite <- (Hoth k Hne); exact Hk].
      destruct (Hat v Hk) as (cur & Hc & _ & _ & Hng & _). rewrite (Hng eq_refl). exact Hc. }
    destruct (N.eq_dec x a) as [->|Hne].
    - destruct (Hat s Hs) as (cur & Hc & Hnew & Hself & Hng & _).
      intros y Hy. apply Hnew. right. exists m. rewrite <- (Hng eq_refl).
      assert (Hma : m <> a) by (intros ->; exact (Hself Hm)).
      split; [exact Hm|]. split; [exact Hma|]. exists sm. rewrite <- (Hoth m Hma). split; assumption.
    - destruct Hx as [Hx|Hx]; [symmetry in Hx; contradiction|].
      exact (HC x s m sm Hx (Hsub _ _ Hs) Hm (Hsub _ _ Hsm)).
  Qed.

  Lemma fold_upd_mono : forall l res upd res',
    fold_left reach_step l (res, upd) = (res', false) -> upd = false.
  Proof.
    induction l as [|a l IH]; intros res upd res' H; cbn [fold_left] in H; [injection H as _ ->; reflexivity|].
    destruct (step_spec res upd a) as (res1 & g & Heq & _). rewrite Heq in H.
    apply IH, orb_false_elim in H. apply H.
  Qed.

  Lemma fold_noupd : forall l P res upd res',
    Closed P res -> fold_left reach_step l (res, upd) = (res', false) -> Closed (rev l ++ P) res'.
  Proof.
    induction l as [|a l IH]; intros P res upd res' HC H; cbn [fold_left] in H.
    - injection H as <- _. exact HC.
    - destruct (step_spec res upd a) as (res1 & g & Heq & Hst). rewrite Heq in H.
      destruct (orb_false_elim _ _ (fold_upd_mono _ _ _ _ H)) as [_ ->].
      cbn [rev]. rewrite <- app_assoc. exact (IH (a :: P) _ _ _ (step_Closed _ _ _ _ Hst HC) H).
  Qed.

  Lemma closed_cover res :
    (forall x s m sm, mlookup x res = Some s -> In m s -> mlookup m res = Some sm -> incl sm s) ->
    (forall x y s, medge init x y -> mlookup x res = Some s -> In y s) ->
    forall l x y s, chain (medge init) x l y -> mlookup x res = Some s ->
      (forall z, In z l -> present z res) -> In y s.
  Proof.
    intros Hcl Hdir. induction l as [|z l IH]; intros x y s Hch Hs Hpres; [exact (Hdir x y s Hch Hs)|].
    destruct Hch as [Hxz Hch]. destruct (Hpres z (or_introl eq_refl)) as [sz Hsz].
    apply (Hcl x s z sz Hs (Hdir x z s Hxz Hs) Hsz), (IH z y sz Hch Hsz).
    intros z0 Hz0. apply Hpres. right. exact Hz0.
  Qed.

  Lemma round_noupd t res res' :
    (forall x, present x init -> In x names) ->
    Basic res -> CoverP t [] res -> reach_round names res = (res', false) ->
    forall t', CoverP t' [] res'.
  Proof.
    intros Hnames HB HC H. destruct (round_inv t res res' false Hnames HB HC H) as [[B1 _] [C1 C2]].
    pose proof (fold_noupd names [] res false res' (fun x s m sm (Hx : In x []) => match Hx with end) H) as Hcl.
    intros t'. split; [|intros x s _ Hs; exact (C2 x s (or_intror (le_n_S _ _ (Nat.le_0_l t))) Hs)].
    intros x l y s Hch Hs Hpres _. revert l x y s Hch Hs Hpres. apply closed_cover.
    - intros x s m sm Hs. apply (Hcl x s m sm); [|exact Hs].
      rewrite app_nil_r, <- in_rev. apply Hnames, B1. exists s. exact Hs.
    - intros x y s He Hs. apply (C1 x [] y s He Hs); [intros z []|left; apply Nat.le_0_l].
  Qed.

  Lemma loop_inv : forall fuel t res res' b,
    (forall x, present x init -> In x names) ->
    Basic res -> CoverP t [] res -> reach_loop fuel names res = (res', b) ->
    Basic res' /\ CoverP (t + fuel) [] res'.
  Proof.
    induction fuel as [|f IH]; intros t res res' b Hnames HB HC H; cbn [reach_loop] in H.
    - injection H as <- _. rewrite Nat.add_0_r. split; assumption.
    - destruct (reach_round names res) as [res1 upd] eqn:Hr. destruct upd.
      + destruct (round_inv t res res1 true Hnames HB HC Hr) as [HB1 HC1].
        rewrite Nat.add_succ_r. exact (IH (S t) res1 res' b Hnames HB1 HC1 H).
      + injection H as <- _. split; [apply (round_inv t res res1 false Hnames HB HC Hr)|].
        apply (round_noupd t res res1 Hnames HB HC Hr).
  Qed.
End Inv.

Lemma present_minsert k v res x : present x (minsert k v res) <-> k = x \/ present x res.
Proof.
  unfold present. rewrite mlookup_minsert. destruct (N.eqb_spec x k) as [->|E].
  - split; [left; reflexivity|exists v; reflexivity].
  - split; [right; assumption|intros [H|H]; [symmetry in H; contradiction|exact H]].
Qed.

(* `entry(k).or_default()` extended by [u]: the edges from k to the members of u are added *)
Lemma medge_extend res k u x y :
  medge (minsert k (nunion (match mlookup k res with Some s => s | None => [] end) u) res) x y
  <-> medge res x y \/ (k = x /\ In y u).
Proof.
  unfold medge. rewrite mlookup_minsert. destruct (N.eqb_spec x k) as [->|E].
  - split.
    + intros (s & [= <-] & Hy). apply nunion_In in Hy. destruct Hy as [Hy|Hy]; [left|right; split; [reflexivity|exact Hy]].
      destruct (mlookup k res) as [s|]; [exists s; split; [reflexivity|exact Hy]|destruct Hy].
    + intros H. eexists. split; [reflexivity|]. apply nunion_In.
      destruct H as [(s & -> & Hy)|[_ Hy]]; [left|right]; exact Hy.
  - split; [left; assumption|intros [H|[Hk _]]; [exact H|symmetry in Hk; contradiction]].
Qed.

Lemma mention_edge_cons ws cm r rs x y :
  mention_edge ws cm (r :: rs) x y <-> (b_name r = x /\ In y (used_rule ws cm r)) \/ mention_edge ws cm rs x y.
Proof.
  unfold mention_edge. split.
  - intros (r0 & [<-|Hr] & H); [left; exact H|right; exists r0; split; assumption].
  - intros [H|(r0 & Hr & H)]; [exists r; split; [left; reflexivity|exact H]|exists r0; split; [right; exact Hr|exact H]].
Qed.

Lemma mention_edge_In ws cm rules x y :
  mention_edge ws cm rules x y <-> In (x, y) (flat_map (fun r => map (pair (b_name r)) (used_rule ws cm r)) rules).
Proof.
  unfold mention_edge. rewrite in_flat_map. split; intros (r & Hr & H); exists r; (split; [exact Hr|]).
  - destruct H as [<- Hy]. apply in_map, Hy.
  - apply in_map_iff in H. destruct H as (y' & [= <- <-] & Hy). split; [reflexivity|exact Hy].
Qed.

Lemma init_medge ws cm rules x y : forall res,
  medge (init_map ws cm rules res) x y <-> medge res x y \/ mention_edge ws cm rules x y.
Proof.
  induction rules as [|r rs IH]; intros res; cbn [init_map].
  - split; [left; assumption|intros [H|(r & [] & _)]; exact H].
  - rewrite IH, medge_extend, mention_edge_cons. apply or_assoc.
Qed.

Lemma init_present_gen ws cm rules x : forall res,
  present x (init_map ws cm rules res) <-> present x res \/ In x (map b_name rules).
Proof.
  induction rules as [|r rs IH]; intros res; cbn [init_map map In].
  - split; [left; assumption|intros [H|[]]; exact H].
  - rewrite IH, present_minsert, (or_comm (b_name r = x)). apply or_assoc.
Qed.

Lemma init_NoDup ws cm rules : forall res,
  (forall k v, mlookup k res = Some v -> NoDup v) ->
  forall k v, mlookup k (init_map ws cm rules res) = Some v -> NoDup v.
Proof.
  induction rules as [|r rs IH]; intros res Hnd; cbn [init_map]; [exact Hnd|].
  apply IH. intros k v. rewrite mlookup_minsert. destruct (N.eqb k (b_name r)); [|apply Hnd].
  intros [= <-]. apply nunion_NoDup. destruct (mlookup (b_name r) res) as [s|] eqn:Hs; [exact (Hnd _ _ Hs)|constructor].
Qed.

Lemma init_edge ws cm rules x y :
  medge (init_map ws cm rules []) x y <-> mention_edge ws cm rules x y.
Proof. rewrite init_medge. split; [intros [(s & [=] & _)|H]; exact H|right; assumption]. Qed.

Lemma init_present ws cm rules x :
  present x (init_map ws cm rules []) <-> In x (map b_name rules).
Proof. rewrite init_present_gen. split; [intros [(s & [=])|H]; exact H|right; assumption]. Qed.

Lemma chain_init_iff ws cm rules x l y :
  chain (medge (init_map ws cm rules [])) x l y <-> chain (mention_edge ws cm rules) x l y.
Proof. split; apply chain_mono; intros a b; apply init_edge. Qed.

Lemma final_inv ws cm rules :
  Basic (init_map ws cm rules []) (collect_reachability ws cm rules) /\
  CoverP (init_map ws cm rules []) (length rules) [] (collect_reachability ws cm rules).
Proof.
  unfold collect_reachability, collect_reachability_full.
  destruct (reach_loop (length rules) (map b_name rules) (init_map ws cm rules [])) as [res b] eqn:H.
  apply (loop_inv (init_map ws cm rules []) (map b_name rules) (length rules) 0 _ res b) in H.
  - exact H.
  - intros x. apply init_present.
  - split; [|split; [|split]].
    + intros x Hx. exact Hx.
    + intros x s y Hs Hy. exists [], s. split; assumption.
    + intros x Hx _. exact Hx.
    + apply init_NoDup. discriminate.
  - split.
    + intros x [|z l] y s Hch Hs _ [Hlen|[_ []]]; [|inversion Hlen].
      destruct Hch as (s' & Hs' & Hy). congruence.
    + intros x s [[]|Hle] _. inversion Hle.
Qed.

Lemma not_boxed_present ws cm rules z :
  In z (not_boxed ws cm rules) <-> present z (collect_reachability ws cm rules).
Proof. apply mkeys_present. Qed.

Lemma is_boxed_false ws cm rules z :
  is_boxed true ws cm rules z = false <-> In z (not_boxed ws cm rules).
Proof. unfold is_boxed. cbn [negb orb]. rewrite negb_false_iff. apply nmem_In. Qed.

Lemma final_keys ws cm rules x :
  present x (collect_reachability ws cm rules) -> In x (map b_name rules).
Proof. intros Hx. apply (init_present ws cm), (proj1 (final_inv ws cm rules)), Hx. Qed.

Lemma boxing_invariant : forall ws cm rules x s,
  mlookup x (collect_reachability ws cm rules) = Some s ->
  In x (map b_name rules) /\ NoDup s /\ ~ In x s /\
  (forall y, In y s -> exists l, chain (mention_edge ws cm rules) x l y) /\
  (forall l y, chain (mention_edge ws cm rules) x l y ->
     (forall z, In z l -> In z (not_boxed ws cm rules)) -> In y s).
Proof.
  intros ws cm rules x s Hs. destruct (final_inv ws cm rules) as [(_ & B2 & _ & B4) [C1 C2]].
  assert (Hx : In x (map b_name rules)) by (apply (final_keys ws cm); exists s; exact Hs).
  assert (Hn : 1 <= length rules) by (clear - Hx; destruct rules; [destruct Hx|apply le_n_S, Nat.le_0_l]).
  split; [exact Hx|]. split; [exact (B4 x s Hs)|]. split; [exact (C2 x s (or_intror Hn) Hs)|]. split.
  - intros y Hy. destruct (B2 x s y Hs Hy) as [l Hl]. exists l. apply chain_init_iff, Hl.
  - intros l y Hch Hpres. apply chain_init_iff in Hch.
    (* pigeonhole: a path without repeated nodes through keys has fewer nodes than there are rules *)
    destruct (chain_shorten _ l x y Hch) as (l' & Hch' & Hnd & Hincl).
    assert (Hkey : forall z, In z l' -> present z (collect_reachability ws cm rules)).
    { intros z Hz. apply not_boxed_present, Hpres, Hincl, Hz. }
    assert (Hlen : length (x :: l') <= length (map b_name rules)).
    { apply NoDup_incl_length; [exact Hnd|]. intros z [<-|Hz]; [exact Hx|exact (final_keys _ _ _ z (Hkey z Hz))]. }
    rewrite map_length in Hlen. exact (C1 x l' y s Hch' Hs Hkey (or_introl (le_S_n _ _ (le_S _ _ Hlen)))).
Qed.

(* no cycle of the mention graph runs through unboxed rules only -- for every rule list, i.e. the cap of
   `rules.len()` rounds never stops the analysis too early: x would be a member of its own entry *)
Lemma boxing_sound : forall ws cm rules x l,
  (forall z, In z (x :: l) -> is_boxed true ws cm rules z = false) ->
  ~ chain (mention_edge ws cm rules) x l x.
Proof.
  intros ws cm rules x l Hunb Hch.
  assert (Hnb : forall z, In z (x :: l) -> In z (not_boxed ws cm rules)) by (intros z Hz; apply is_boxed_false, Hunb, Hz).
  destruct (proj1 (not_boxed_present ws cm rules x) (Hnb x (or_introl eq_refl))) as [s Hs].
  destruct (boxing_invariant ws cm rules x s Hs) as (_ & _ & Hself & _ & Hcl).
  apply Hself, (Hcl l x Hch). intros z Hz. apply Hnb. right. exact Hz.
Qed.

Lemma in_combine_map {A B} (f : A -> B) a b l : In (a, b) (combine l (map f l)) -> f a = b.
Proof. induction l as [|c l IH]; cbn [map combine In]; [intros []|]. intros [[= -> E]|Hi]; [exact E|exact (IH Hi)]. Qed.

(* the same, read on the list of flags the generator computes *)
Lemma boxing_sound_flags : forall ws cm rules x l,
  (forall z, In z (x :: l) -> exists r, In r rules /\ b_name r = z /\
        In (r, false) (combine rules (boxed_flags true ws cm rules))) ->
  ~ chain (mention_edge ws cm rules) x l x.
Proof.
  intros ws cm rules x l H. apply boxing_sound. intros z Hz. destruct (H z Hz) as (r & _ & <- & Hc).
  exact (in_combine_map (fun r => is_boxed true ws cm rules (b_name r)) r false rules Hc).
Qed.

(* a rule on no cycle of the FULL mention graph is never boxed *)
Lemma boxing_minimal : forall ws cm rules r,
  In r rules ->
  (forall l, ~ chain (mention_edge ws cm rules) (b_name r) l (b_name r)) ->
  is_boxed true ws cm rules (b_name r) = false.
Proof.
  intros ws cm rules r Hr Hno. apply is_boxed_false, not_boxed_present.
  destruct (final_inv ws cm rules) as [(_ & _ & B3 & _) _]. apply B3.
  - apply init_present, in_map, Hr.
  - intros [l Hl]. apply (Hno l), chain_init_iff, Hl.
Qed.

Lemma boxing_off : forall ws cm rules, boxed_flags false ws cm rules = map (fun _ => true) rules.
Proof. reflexivity. Qed.

(* graph.rs test `inter_reference`: expected BTreeMap::from([("b", BTreeSet::from(["a", "c"]))]);
   a = 3, b = 6, c = 9 under [code_rule] *)
Example inter_reference_map :
  collect_reachability None None inter_reference_rules = [(6, [9; 3])]%N.
Proof. vm_compute. reflexivity. Qed.

Example inter_reference_flags :
  boxed_flags true None None inter_reference_rules = [true; false; true] /\
  boxed_flags false None None inter_reference_rules = [true; true; true] /\
  last_round_made_no_update None None inter_reference_rules = true.
Proof. vm_compute. repeat split. Qed.

(* the premise of boxing_sound is satisfiable with a non-trivial graph, and the cycle a -> b -> c -> a exists *)
Example inter_reference_cycle :
  chain (mention_edge None None inter_reference_rules) 3%N [6%N; 9%N] 3%N.
Proof. cbn [chain]. split; [|split]; apply mention_edge_In; vm_compute; auto. Qed.

(* the analysis is not minimal: boxing `a` alone would break every cycle of inter_reference (no cycle avoids a),
   yet `c` is boxed too *)
Example inter_reference_not_minimal :
  is_boxed true None None inter_reference_rules 9%N = true /\
  (forall x l, (forall z, In z (x :: l) -> z <> 3%N) ->
     ~ chain (mention_edge None None inter_reference_rules) x l x).
Proof.
  split; [vm_compute; reflexivity|]. intros x l Hno Hch.
  (* the only edge between nodes other than a is b -> c *)
  assert (E : forall u v, In u (x :: l) -> In v (x :: l) -> mention_edge None None inter_reference_rules u v -> u = 6%N /\ v = 9%N).
  { intros u v Hu%Hno Hv%Hno H%mention_edge_In. vm_compute in H.
    destruct H as [[= <- <-]|[[= <- <-]|[[= <- <-]|[[= <- <-]|[]]]]]; [destruct Hu|split|destruct Hv..]; reflexivity. }
  destruct l as [|z l].
  - destruct (E x x (or_introl eq_refl) (or_introl eq_refl) Hch) as [-> [=]].
  - destruct Hch as [H1 H2]. destruct (E x z (or_introl eq_refl) (or_intror (or_introl eq_refl)) H1) as [-> ->].
    (* the path continues from c, whose only edge goes back to a *)
    destruct l as [|w l]; [|destruct H2 as [H2 _]].
    + destruct (E _ _ (or_intror (or_introl eq_refl)) (or_introl eq_refl) H2) as [[=] _].
    + destruct (E _ _ (or_intror (or_introl eq_refl)) (or_intror (or_intror (or_introl eq_refl))) H2) as [[=] _].
Qed.

(* implicit WHITESPACE: a NORMAL rule WHITESPACE mentions itself (it is skipped inside itself) and is boxed, a
   silent one is not; rules 1 = WHITESPACE = { " " }, 2 = a = { "x" ~ "y" } *)
Example implicit_ws_normal :
  boxed_flags true (Some (code_rule 1)) None
    [mk_brule (code_rule 1) KNormal []; mk_brule (code_rule 2) KNormal []] = [true; false].
Proof. vm_compute. reflexivity. Qed.

Example implicit_ws_silent :
  boxed_flags true (Some (code_rule 1)) None
    [mk_brule (code_rule 1) KSilent []; mk_brule (code_rule 2) KNormal []] = [false; false].
Proof. vm_compute. reflexivity. Qed.

(* implicit mentions are added for NORMAL rules only:  WHITESPACE = _{ " " ~ a? }  with  a = { "x" }  is a cycle for
   the analysis (WHITESPACE -> a -> WHITESPACE, the first rule in order is boxed), with  a = _{ "x" }  /  @{ "x" }  it
   is not *)
Example implicit_only_normal :
  boxed_flags true (Some (code_rule 1)) None
    [mk_brule (code_rule 1) KSilent [code_rule 2]; mk_brule (code_rule 2) KNormal []] = [true; false] /\
  boxed_flags true (Some (code_rule 1)) None
    [mk_brule (code_rule 1) KSilent [code_rule 2]; mk_brule (code_rule 2) KSilent []] = [false; false] /\
  boxed_flags true (Some (code_rule 1)) None
    [mk_brule (code_rule 1) KSilent [code_rule 2]; mk_brule (code_rule 2) KAtomic []] = [false; false].
Proof. vm_compute. repeat split; reflexivity. Qed.
