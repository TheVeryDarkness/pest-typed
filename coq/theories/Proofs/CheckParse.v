(* C03: the check path is the parse path with the tree erased. *)
From Coq Require Import List Arith Bool.
From PT Require Import Model.Base Model.Stack Model.Texpr Model.Sem.
Import ListNotations.

Definition erase {A} (r : res (nat * A)) : res nat :=
  match r with
  | Ok (p, _) st => Ok p st
  | Fail st => Fail st
  | Panic => Panic
  | Fuel => Fuel
  end.

Definition erase_all {A} (r : res A) : res unit :=
  match r with
  | Ok _ st => Ok tt st
  | Fail st => Fail st
  | Panic => Panic
  | Fuel => Fuel
  end.

Lemma erase_ok {A} (r : res (nat * A)) p st : erase r = Ok p st -> exists t, r = Ok (p, t) st.
Proof. destruct r as [[q t] s|s| |]; try discriminate. intros [= <- <-]. exists t. reflexivity. Qed.

Definition agree {A} (c : res nat) (p : res (nat * A)) : Prop := p <> Panic -> c = erase p.

Lemma agree_refl {A} (p : res (nat * A)) : agree (erase p) p.
Proof. intros _. reflexivity. Qed.

(* [agree] is compositional: every combinator of Sem.v continues a run by a [match] of this
   shape, on both paths, so related runs with related continuations give related results. *)
Lemma agree_match {A B} (c : res nat) (p : res (nat * A)) kc fc (kp : nat * A -> state -> res (nat * B)) fp :
  agree c p ->
  (forall pos a st, agree (kc pos st) (kp (pos, a) st)) ->
  (forall st, agree (fc st) (fp st)) ->
  agree (match c with Ok pos st => kc pos st | Fail st => fc st | Panic => Panic | Fuel => Fuel end)
        (match p with Ok pa st => kp pa st | Fail st => fp st | Panic => Panic | Fuel => Fuel end).
Proof.
  unfold agree. intros H Hk Hf Hn.
  destruct p as [[pos a] st|st| |]; try (rewrite H by discriminate; cbn [erase]; auto). congruence.
Qed.

(* the check path hands on the result of a call that the parse path repackages *)
Lemma agree_ok {A B} (c : res nat) (p : res (nat * A)) (kp : nat * A -> state -> res (nat * B)) :
  agree c p ->
  (forall pos a st, agree (Ok pos st) (kp (pos, a) st)) ->
  agree c (match p with Ok pa st => kp pa st | Fail st => Fail st | Panic => Panic | Fuel => Fuel end).
Proof.
  unfold agree. intros H Hk Hn.
  destruct p as [[pos a] st|st| |]; try (rewrite H by discriminate; cbn [erase]; auto). congruence.
Qed.

Lemma lift_agree {X A} (m : mres X) (fc : X -> res nat) (fp : X -> res (nat * A)) :
  (forall x, agree (fc x) (fp x)) -> agree (lift m fc) (lift m fp).
Proof. intros H. destruct m; cbn; [apply H | congruence]. Qed.

(* the parse path builds a span or slices the text (and may panic there) where the check path just returns *)
Lemma lift_ok_agree {X A} (m : mres X) p st (k : X -> res (nat * A)) :
  (forall x, agree (Ok p st) (k x)) -> agree (Ok p st) (lift m k).
Proof. intros Hk. destruct m; cbn [lift]; [apply Hk|unfold agree; congruence]. Qed.

Section Agree.
  Variable E : env.
  Variable P : bool -> texpr -> nat -> state -> res (nat * tnode).
  Variable C : bool -> texpr -> nat -> state -> res nat.
  Hypothesis HPC : forall inh e pos st, agree (C inh e pos st) (P inh e pos st).

  Lemma ron_agree {A} (fc : state -> res nat) (fp : state -> res (nat * A)) st :
    (forall s, agree (fc s) (fp s)) -> agree (ron E fc st) (ron E fp st).
  Proof.
    intros H. unfold ron. destruct (e_ron_fixed E); cbv zeta.
    - apply agree_match; [apply H|intros; apply agree_refl..].
    - apply agree_match; [apply H|intros; apply lift_agree; intros ?; apply agree_refl..].
  Qed.

  Lemma notrack_agree {A} (fc : state -> res nat) (fp : state -> res (nat * A)) st :
    agree (fc st) (fp st) -> agree (notrack fc st) (notrack fp st).
  Proof. intros H. apply agree_match; [exact H|intros; apply agree_refl..]. Qed.

  Lemma arep_agree n : forall inh e pos st acc,
    agree (arep_c E C n inh e pos st) (arep_p E P n inh e pos st acc).
  Proof.
    induction n as [|n IH]; intros; [apply agree_refl|].
    apply agree_match; [|intros; apply IH|intros; apply agree_refl].
    apply ron_agree. intros. apply notrack_agree, HPC.
  Qed.

  Variable lf : nat.

  Lemma skip_agree pos st : agree (skip_c E C lf pos st) (skip_p E P lf pos st).
  Proof. unfold skip_c, skip_p. destruct (e_skip E); [apply agree_refl | apply arep_agree]. Qed.

  Lemma pre_skip_agree b doit pos st :
    agree (pre_skip_c E C lf (b && doit) pos st) (pre_skip_p E P lf b doit pos st).
  Proof.
    unfold pre_skip_c, pre_skip_p. destruct b, doit; try apply agree_refl.
    apply agree_ok; [apply skip_agree|intros; apply agree_refl].
  Qed.

  Lemma seq_agree b inh : forall es first pos st acc,
    agree (seq_c E C lf b inh es first pos st) (seq_p E P lf b inh es first pos st acc).
  Proof.
    induction es as [|e es IH]; intros; [apply agree_refl|]. cbn [seq_c seq_p]. rewrite andb_comm.
    apply agree_match; [apply pre_skip_agree| |intros; apply agree_refl]. intros.
    apply agree_match; [apply HPC|intros; apply IH|intros; apply agree_refl].
  Qed.

  Lemma choice_agree inh n : forall es i pos st,
    agree (choice_c E C inh es pos st) (choice_p E P inh n es i pos st).
  Proof.
    induction es as [|e es IH]; intros; [apply agree_refl|].
    apply agree_match; [apply ron_agree, HPC|intros; apply agree_refl|intros; apply IH].
  Qed.

  Lemma unit_agree b inh e i pos st :
    agree (unit_c E C lf b inh e i pos st) (unit_p E P lf b inh e i pos st).
  Proof.
    apply agree_match; [apply pre_skip_agree| |intros; apply agree_refl]. intros.
    apply agree_ok; [apply HPC|intros; apply agree_refl].
  Qed.

  Lemma rep_agree b inh mn mx e : forall n i pos st acc,
    agree (rep_c E C lf n b inh mn mx e i pos st) (rep_p E P lf n b inh mn mx e i pos st acc).
  Proof.
    assert (Hout : forall i pos st acc,
      agree (if e_rep_min_after E && (i <? mn)%nat then Fail st else Ok pos st)
            (if e_rep_min_after E && (i <? mn)%nat then Fail st else Ok (pos, NRep (bounded mx) (rev acc)) st)).
    { intros. destruct (_ && _); apply agree_refl. }
    induction n as [|n IH]; intros; cbn [rep_c rep_p]; destruct (below i mx); try apply Hout; [apply agree_refl|].
    apply agree_match; [apply ron_agree; intros; apply unit_agree|intros; apply IH|].
    intros. destruct (i <? mn)%nat; apply agree_refl.
  Qed.

  Lemma arr_agree inh e : forall n pos st acc,
    agree (arr_c C n inh e pos st) (arr_p P n inh e pos st acc).
  Proof.
    induction n as [|n IH]; intros; [apply agree_refl|].
    apply agree_match; [apply HPC|intros; apply IH|intros; apply agree_refl].
  Qed.

  Lemma newline_agree : forall alts pos st,
    agree (newline_c E alts pos st) (newline_p E alts pos st).
  Proof.
    induction alts as [|[bs k] alts IH]; intros; [apply agree_refl|].
    apply lift_agree. intros [p'|]; [apply agree_refl | apply IH].
  Qed.

  Lemma leaf_agree (m : mres (option nat)) st (k : nat -> res (nat * tnode)) :
    (forall p, agree (Ok p st) (k p)) -> agree (leaf_check m st) (leaf_match m st k).
  Proof. intros Hk. apply lift_agree. intros [p|]; [apply Hk|apply agree_refl]. Qed.

  Lemma step_agree inh e pos st :
    agree (step_c E C lf inh e pos st) (step_p E P C lf inh e pos st).
  Proof.
    destruct e; cbn [step_c step_p].
    - (* TStr *) apply leaf_agree. intros; apply agree_refl.
    - (* TInsens *) apply leaf_agree. intros. do 2 (apply lift_ok_agree; intros). apply agree_refl.
    - (* TRange *) apply lift_agree. intros [[p c]|]; [|apply agree_refl].
      do 2 (apply lift_ok_agree; intros). destruct (dec1 _) as [[c' l]|]; [apply agree_refl|unfold agree; congruence].
    - (* TAny *) apply lift_agree. intros [[p c]|]; apply agree_refl.
    - (* TSoi *) destruct (i_at_start (e_inp E) pos); apply agree_refl.
    - (* TEoi *) destruct (i_at_end (e_inp E) pos); apply agree_refl.
    - (* TNewline *) apply newline_agree.
    - (* TCharBy *) apply lift_agree. intros [[p' c]|]; apply agree_refl.
    - (* TSkipUntil *) destruct (i_skip_until (e_inp E) (e_su_cut E) ss pos) as [f p'].
      apply lift_ok_agree. intros; apply agree_refl.
    - (* TSkipChars *) apply leaf_agree. intros. apply lift_ok_agree. intros; apply agree_refl.
    - (* TSeq *) apply seq_agree.
    - (* TChoice *) apply choice_agree.
    - (* TOpt *) apply agree_match; [apply ron_agree, HPC|intros; apply agree_refl..].
    - (* TRep *) apply rep_agree.
    - (* TAtomicRep *) apply arep_agree.
    - (* TPos *) apply agree_match; [apply HPC|intros; apply lift_agree; intros; apply agree_refl..].
    - (* TNeg: the same check call on both paths *)
      intros _. destruct (C inh e pos _) as [p s'|s'| |]; try reflexivity; destruct (s_restore (stk s')); reflexivity.
    - (* TPush *) apply agree_match; [apply HPC|intros; apply lift_agree; intros; apply agree_refl|intros; apply agree_refl].
    - (* TPeek *)
      destruct (s_peek (stk st)) as [sp|]; [|apply agree_refl].
      apply lift_agree. intros txt. apply leaf_agree. intros. apply lift_ok_agree. intros; apply agree_refl.
    - (* TPop *)
      destruct (s_pop (stk st)) as [[sp|] s']; [|apply agree_refl].
      apply lift_agree. intros txt. apply leaf_agree. intros; apply agree_refl.
    - (* TDrop *) destruct (s_pop (stk st)) as [[sp|] s']; apply agree_refl.
    - (* TPeekAll *)
      apply lift_agree. intros bf. apply lift_agree. intros [p|]; [|apply agree_refl].
      apply lift_agree. intros; apply agree_refl.
    - (* TPopAll *)
      apply lift_agree. intros bf. apply lift_agree. intros [p|]; [|apply agree_refl].
      apply lift_agree. intros; apply agree_refl.
    - (* TPeekSlice *)
      destruct (stack_slice (stk st) a b) as [m|]; [|apply agree_refl].
      apply lift_agree. intros sps. apply lift_agree. intros [p|]; [|apply agree_refl].
      apply lift_agree. intros; apply agree_refl.
    - (* TArr *) apply arr_agree.
    - (* TPair *)
      apply agree_match; [apply HPC| |intros; apply agree_refl]. intros.
      apply agree_ok; [apply HPC|intros; apply agree_refl].
    - (* TEmpty *) apply agree_refl.
    - (* TFail *) apply agree_refl.
    - (* TRule *)
      destruct (r_emis (e_rules E r)).
      + (* span-only: the parse path itself runs the check path *)
        destruct (C _ _ pos _) as [p s'|s'| |]; try apply agree_refl.
        apply lift_ok_agree; intros; apply agree_refl.
      + apply agree_ok; [apply HPC|intros; apply agree_refl].
      + apply agree_match; [apply HPC|intros; apply lift_ok_agree; intros; apply agree_refl|intros; apply agree_refl].
  Qed.
End Agree.

Theorem check_is_parse E : forall fuel inh e pos st,
  tparse E fuel inh e pos st <> Panic ->
  tcheck E fuel inh e pos st = erase (tparse E fuel inh e pos st).
Proof.
  induction fuel as [|n IH]; intros inh e pos st; [intros _; reflexivity|].
  apply step_agree. exact IH.
Qed.

Lemma try_check_partial_is_parse E fuel r :
  try_parse_partial E fuel r <> Panic ->
  try_check_partial E fuel r = erase (try_parse_partial E fuel r).
Proof. apply check_is_parse. Qed.

Lemma top_skip_agree E fuel pos st :
  top_skip_p E fuel pos st <> Panic -> top_skip_c E fuel pos st = erase (top_skip_p E fuel pos st).
Proof. apply skip_agree. exact (check_is_parse E fuel). Qed.

Theorem try_check_is_parse E fuel r :
  try_parse E fuel r <> Panic ->
  try_check E fuel r = erase_all (try_parse E fuel r).
Proof.
  unfold try_check, try_parse. intros Hn.
  rewrite try_check_partial_is_parse by (intros H; rewrite H in Hn; congruence).
  destruct (try_parse_partial E fuel r) as [[pos t] st|st| |]; try reflexivity. cbn [erase].
  destruct (no_ignore E r).
  - destruct (eoi_attempt E pos st) as [[] s'|s'| |]; reflexivity.
  - rewrite top_skip_agree by (intros H; rewrite H in Hn; congruence).
    destruct (top_skip_p E fuel pos st) as [[pos' t'] st'|st'| |]; try reflexivity. cbn [erase].
    destruct (eoi_attempt E pos' st') as [[] s'|s'| |]; reflexivity.
Qed.
