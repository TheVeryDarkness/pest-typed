(* C18: consistency of the modelled `==`, `Hash` and `{:?}` of parse results (Model/EqHash.v), for all pairs of
   tnodes over one input object.  "Equal -> same rendering, same hash" is one induction ([fwd_all]).  The direction
   "equal rendering -> equal" is a unique-decoding argument on the flat token list: [dec_all] shows that the
   rendering of a node is a prefix code. *)
From Coq Require Import List NArith Arith Bool.
From PT Require Import Model.Base Model.Texpr Model.EqHash.
Import ListNotations.

Section TnodeInd.
  Variable P : tnode -> Prop.
  Definition Pitem (it : list tnode * tnode) : Prop := Forall P (fst it) /\ P (snd it).
  Definition Popt (o : option tnode) : Prop := match o with Some u => P u | None => True end.
  Hypothesis HStr : P NStr.
  Hypothesis HInsens : forall s e, P (NInsens s e).
  Hypothesis HChar : forall k c, P (NChar k c).
  Hypothesis HSoi : P NSoi.
  Hypothesis HEoi : P NEoi.
  Hypothesis HNewline : forall k, P (NNewline k).
  Hypothesis HSpanned : forall k s e, P (NSpanned k s e).
  Hypothesis HSeq : forall items, Forall Pitem items -> P (NSeq items).
  Hypothesis HChoice : forall n k u, P u -> P (NChoice n k u).
  Hypothesis HOpt : forall o, Popt o -> P (NOpt o).
  Hypothesis HRep : forall b items, Forall Pitem items -> P (NRep b items).
  Hypothesis HAtomicRep : forall l, Forall P l -> P (NAtomicRep l).
  Hypothesis HPos : forall u, P u -> P (NPos u).
  Hypothesis HNeg : P NNeg.
  Hypothesis HPush : forall u, P u -> P (NPush u).
  Hypothesis HDrop : P NDrop.
  Hypothesis HSlice : forall b, P (NSlice b).
  Hypothesis HArr : forall l, Forall P l -> P (NArr l).
  Hypothesis HPair : forall a b, P a -> P b -> P (NPair a b).
  Hypothesis HEmpty : P NEmpty.
  Hypothesis HRule : forall r c sp, Popt c -> P (NRule r c sp).

  Fixpoint tnode_nested_ind (t : tnode) : P t :=
    let go := fix go (l : list tnode) : Forall P l :=
      match l with
      | [] => Forall_nil P
      | c :: l' => Forall_cons c (tnode_nested_ind c) (go l')
      end in
    let goi := fix goi (l : list (list tnode * tnode)) : Forall Pitem l :=
      match l with
      | [] => Forall_nil Pitem
      | it :: l' => Forall_cons it (conj (go (fst it)) (tnode_nested_ind (snd it))) (goi l')
      end in
    let goo := fun (o : option tnode) =>
      match o return Popt o with
      | Some u => tnode_nested_ind u
      | None => I
      end in
    match t with
    | NStr => HStr
    | NInsens s e => HInsens s e
    | NChar k c => HChar k c
    | NSoi => HSoi
    | NEoi => HEoi
    | NNewline k => HNewline k
    | NSpanned k s e => HSpanned k s e
    | NSeq items => HSeq items (goi items)
    | NChoice n k u => HChoice n k u (tnode_nested_ind u)
    | NOpt o => HOpt o (goo o)
    | NRep b items => HRep b items (goi items)
    | NAtomicRep l => HAtomicRep l (go l)
    | NPos u => HPos u (tnode_nested_ind u)
    | NNeg => HNeg
    | NPush u => HPush u (tnode_nested_ind u)
    | NDrop => HDrop
    | NSlice b => HSlice b
    | NArr l => HArr l (go l)
    | NPair a b => HPair a b (tnode_nested_ind a) (tnode_nested_ind b)
    | NEmpty => HEmpty
    | NRule r c sp => HRule r c sp (goo c)
    end.
End TnodeInd.

Lemma bytes_eqb_iff a b : bytes_eqb a b = true <-> a = b.
Proof.
  revert b; induction a as [|x a IH]; intros [|y b]; cbn [bytes_eqb]; split; intros H;
    try reflexivity; try discriminate H.
  - apply andb_true_iff in H as [Hx Hr]. apply N.eqb_eq in Hx. apply IH in Hr. subst. reflexivity.
  - injection H as -> ->. rewrite N.eqb_refl. cbn [andb]. apply IH. reflexivity.
Qed.

Lemma nlkind_eqb_iff a b : nlkind_eqb a b = true <-> a = b.
Proof. destruct a, b; cbn; split; intros H; try reflexivity; discriminate H. Qed.

Lemma spk_eqb_iff a b : spk_eqb a b = true <-> a = b.
Proof. split; [destruct a, b; intros H; (reflexivity || discriminate H) | intros ->; destruct b; reflexivity]. Qed.

Lemma chk_eqb_iff a b : chk_eqb a b = true <-> a = b.
Proof.
  destruct a, b; cbn [chk_eqb]; split; intros H; try reflexivity; try discriminate H.
  - apply N.eqb_eq in H. subst. reflexivity.
  - injection H as ->. apply N.eqb_refl.
Qed.

Lemma span_eqb_iff a b : span_eqb a b = true <-> a = b.
Proof.
  destruct a as [s1 e1], b as [s2 e2]. unfold span_eqb. cbn [fst snd]. rewrite andb_true_iff, !Nat.eqb_eq.
  split; [intros [-> ->]; reflexivity | intros H; injection H as -> ->; auto].
Qed.

Lemma bool_eqb_iff a b : Bool.eqb a b = true <-> a = b.
Proof. destruct a, b; cbn; split; intros H; try reflexivity; discriminate H. Qed.

Lemma chk_name_inj a b : chk_name a = chk_name b -> a = b.
Proof. destruct a, b; cbn; intros H; try reflexivity; try discriminate H. injection H as ->. reflexivity. Qed.

(* `<[T] as PartialEq>::eq` literally: the length test, then the zip *)
Lemma list_eqb_spec {A} (f : A -> A -> bool) l1 l2 :
  list_eqb f l1 l2 = (length l1 =? length l2)%nat && forallb (fun p => f (fst p) (snd p)) (combine l1 l2).
Proof.
  revert l2; induction l1 as [|x l1 IH]; intros [|y l2]; cbn [list_eqb length combine forallb fst snd Nat.eqb andb];
    try reflexivity.
  rewrite IH. destruct (f x y), (length l1 =? length l2)%nat; reflexivity.
Qed.

Lemma opt_eqb_iff {A} (f : A -> A -> bool) :
  (forall a b, f a b = true <-> a = b) -> forall o1 o2, opt_eqb f o1 o2 = true <-> o1 = o2.
Proof.
  intros Hf [a|] [b|]; cbn [opt_eqb]; [rewrite Hf| | |]; split; intros H; try discriminate H; try reflexivity.
  - rewrite H. reflexivity.
  - injection H as ->. reflexivity.
Qed.

Lemma list_eqb_obs {A B C} (f : A -> A -> bool) (g : A -> B) (h : A -> list C) l1 :
  Forall (fun x => forall y, f x y = true -> g x = g y /\ h x = h y) l1 ->
  forall l2, list_eqb f l1 l2 = true ->
  length l1 = length l2 /\ map g l1 = map g l2 /\ flat_map h l1 = flat_map h l2.
Proof.
  induction 1 as [|x l1 Hx _ IH]; intros [|y l2] H; try discriminate H; [auto|].
  cbn [list_eqb] in H. apply andb_true_iff in H as [Hxy Hr].
  destruct (Hx y Hxy) as [Hg Hh], (IH l2 Hr) as (Hn & Hm & Hf).
  cbn [length map flat_map]. rewrite Hg, Hh, Hn, Hm, Hf. auto.
Qed.

(* what the three functions do on one element of a sequence / repetition *)
Definition item_eqb (i : list byte) (a b : list tnode * tnode) : bool :=
  list_eqb (eq_m i) (fst a) (fst b) && eq_m i (snd a) (snd b).

Definition ditem (i : list byte) (it : list tnode * tnode) : list dtoken :=
  match fst it with
  | [] => debug_m i (snd it)
  | _ :: _ => dstruct DnSkipped [(DnSkippedField, dlist (map (debug_m i) (fst it))); (DnMatched, debug_m i (snd it))]
  end.

Definition hitem (i : list byte) (it : list tnode * tnode) : list hword :=
  HUsize (length (fst it)) :: flat_map (hash_m i) (fst it) ++ hash_m i (snd it).

Definition fwd (i : list byte) (t1 : tnode) : Prop :=
  forall t2, eq_m i t1 t2 = true -> debug_m i t1 = debug_m i t2 /\ hash_m i t1 = hash_m i t2.

Lemma fwd_item i a :
  Pitem (fwd i) a -> forall b, item_eqb i a b = true -> ditem i a = ditem i b /\ hitem i a = hitem i b.
Proof.
  intros [Hsk Hm] b H. apply andb_true_iff in H as [H1 H2].
  destruct (list_eqb_obs _ _ _ _ Hsk _ H1) as (Hn & Hd & Hh), (Hm _ H2) as [Hmd Hmh].
  unfold ditem, hitem. rewrite Hn, Hd, Hh, Hmd, Hmh. split; [|reflexivity].
  destruct (fst a), (fst b); try discriminate Hn; reflexivity.
Qed.

Lemma fwd_items i it1 :
  Forall (Pitem (fwd i)) it1 -> forall it2, list_eqb (item_eqb i) it1 it2 = true ->
  length it1 = length it2 /\ map (ditem i) it1 = map (ditem i) it2 /\ flat_map (hitem i) it1 = flat_map (hitem i) it2.
Proof. intros HF. apply list_eqb_obs. exact (Forall_impl _ (fwd_item i) HF). Qed.

Lemma fwd_all i t1 : fwd i t1.
Proof.
  induction t1 as [ | s e | k c | | | k | k s e | items IH | n k u IH | o IH | b items IH | l IH | u IH | | u IH | | b | l IH | a b IHa IHb | | r c sp IH ] using tnode_nested_ind;
    intros t2 H;
    destruct t2 as [ | s' e' | k' c' | | | k' | k' s' e' | items' | n' k' u' | o' | b' items' | l' | u' | | u' | | b' | l' | a' b' | | r' c' sp' ];
    (* on different constructors [eq_m] computes to [false]; [discriminate H] costs three times as much *)
    try exact (False_ind _ (diff_false_true H)); cbn [eq_m] in H.
  - split; reflexivity.
  - apply bytes_eqb_iff in H. cbn [debug_m hash_m]. rewrite H. split; reflexivity.
  - apply andb_true_iff in H as [Hk Hc]. apply chk_eqb_iff in Hk. apply N.eqb_eq in Hc. subst. split; reflexivity.
  - split; reflexivity.
  - split; reflexivity.
  - apply nlkind_eqb_iff in H. subst. split; reflexivity.
  - apply andb_true_iff in H as [Hk Hs]. apply spk_eqb_iff in Hk. apply span_eqb_iff in Hs. injection Hs as -> ->.
    subst. split; reflexivity.
  - destruct (fwd_items i items IH _ H) as (Hn & Hd & Hh).
    split; [exact (f_equal2 (fun n d => dtuple (DnSeq n) d) Hn Hd) | exact Hh].
  - apply andb_true_iff in H as [Hn Hu]. apply andb_true_iff in Hn as [Hn Hk]. apply Nat.eqb_eq in Hn, Hk. subst.
    destruct (IH _ Hu) as [Hd Hh]. cbn [debug_m hash_m]. rewrite Hd, Hh. split; reflexivity.
  - destruct o as [u|], o' as [u'|]; try discriminate H; [|split; reflexivity].
    destruct (IH _ H) as [Hd Hh]. cbn [debug_m hash_m]. rewrite Hd, Hh. split; reflexivity.
  - apply andb_true_iff in H as [Hb H]. apply eqb_prop in Hb. subst.
    destruct (fwd_items i items IH _ H) as (Hn & Hd & Hh).
    split; [exact (f_equal (fun d => dstruct _ [(DnContent, dlist d)]) Hd) | exact (f_equal2 (fun n h => HUsize n :: h) Hn Hh)].
  - destruct (list_eqb_obs _ _ _ _ IH _ H) as (Hn & Hd & Hh). cbn [debug_m hash_m]. rewrite Hn, Hd, Hh. split; reflexivity.
  - destruct (IH _ H) as [Hd Hh]. cbn [debug_m hash_m]. rewrite Hd, Hh. split; reflexivity.
  - split; reflexivity.
  - destruct (IH _ H) as [Hd Hh]. cbn [debug_m hash_m]. rewrite Hd, Hh. split; reflexivity.
  - split; reflexivity.
  - apply eqb_prop in H. subst. split; reflexivity.
  - destruct (list_eqb_obs _ _ _ _ IH _ H) as (Hn & Hd & Hh). cbn [debug_m hash_m]. rewrite Hn, Hd, Hh. split; reflexivity.
  - apply andb_true_iff in H as [Ha Hb]. destruct (IHa _ Ha) as [Hd1 Hh1], (IHb _ Hb) as [Hd2 Hh2].
    cbn [debug_m hash_m]. rewrite Hd1, Hh1, Hd2, Hh2. split; reflexivity.
  - split; reflexivity.
  - apply andb_true_iff in H as [Hrc Hsp]. apply andb_true_iff in Hrc as [Hr Hc].
    apply N.eqb_eq in Hr. apply (opt_eqb_iff _ span_eqb_iff) in Hsp. subst.
    destruct c as [u|], c' as [u'|]; try discriminate Hc; [|split; reflexivity].
    destruct (IH _ Hc) as [Hd Hh]. cbn [debug_m hash_m]. rewrite Hd, Hh. split; reflexivity.
Qed.

(* the first token of a rendering tells the constructor *)
Definition shape (tk : dtoken) (t : tnode) : Prop :=
  match tk with
  | DName DnStr => t = NStr
  | DName DnInsens => exists s e, t = NInsens s e
  | DName DnCharRange => exists c, t = NChar CkRange c
  | DName DnANY => exists c, t = NChar CkAny c
  | DName (DnProp p) => exists c, t = NChar (CkProp p) c
  | DName DnSOI => t = NSoi
  | DName DnEOI => t = NEoi
  | DName DnNEWLINE => exists k, t = NNewline k
  | DName (DnSpanned k) => exists s e, t = NSpanned k s e
  | DName (DnSeq _) => exists items, t = NSeq items
  | DName (DnChoice n) => exists k u, t = NChoice n k u
  | DName DnNone => t = NOpt None
  | DName DnSome => exists u, t = NOpt (Some u)
  | DName DnRepeatMinMax => exists items, t = NRep true items
  | DName DnRepeatMin => exists items, t = NRep false items
  | DName DnAtomicRepeat => exists l, t = NAtomicRep l
  | DName DnPositive => exists u, t = NPos u
  | DName DnNegative => t = NNeg
  | DName DnPush => exists u, t = NPush u
  | DName DnDROP => t = NDrop
  | DName DnPeekSlice2 => t = NSlice true
  | DName DnPeekSlice1 => t = NSlice false
  | DOpenS => exists l, t = NArr l
  | DOpenP => exists a b, t = NPair a b
  | DName DnEmpty => t = NEmpty
  | DName (DnRule r) => exists c sp, t = NRule r c sp
  | _ => False
  end.

Lemma head_inv i t d r : shape (hd d (debug_m i t ++ r)) t.
Proof.
  destruct t as [ | s e | [| |p] c | | | k | k s e | items | n k u | [u|] | [|] items | l | u | | u | | [|] | l | a b | | r' c sp ];
    cbn [hd app debug_m dstruct dtuple dlist chk_name shape]; eauto.
Qed.

Lemma debug_head_ne i c : (forall t, ~ shape c t) -> forall t r, hd c (debug_m i t ++ r) <> c.
Proof. intros Hc t r E. apply (Hc t). rewrite <- E. apply head_inv. Qed.

Lemma ditem_head i c it r : c = DCloseS \/ c = DCloseP -> hd c (ditem i it ++ r) <> c.
Proof.
  intros Hc. unfold ditem. destruct (fst it).
  - apply debug_head_ne. destruct Hc as [-> | ->]; exact (fun _ F => F).
  - destruct Hc as [-> | ->]; discriminate.
Qed.

(* renderings with their continuation, right-nested *)
Ltac norm_app := repeat (progress cbn [app map djoin fst snd] || rewrite <- app_assoc || rewrite app_nil_r).

Lemma dstruct1_app n f v r : dstruct n [(f, v)] ++ r = DName n :: DOpenB :: DName f :: DColon :: v ++ DCloseB :: r.
Proof. unfold dstruct. norm_app. reflexivity. Qed.

Lemma dstruct1_inv n f v r n' f' v' r' :
  dstruct n [(f, v)] ++ r = dstruct n' [(f', v')] ++ r' -> f = f' /\ v ++ DCloseB :: r = v' ++ DCloseB :: r'.
Proof. rewrite !dstruct1_app. intros [= _ -> H]. auto. Qed.

Lemma dstruct2_app n f1 v1 f2 v2 r :
  dstruct n [(f1, v1); (f2, v2)] ++ r =
  DName n :: DOpenB :: DName f1 :: DColon :: v1 ++ DComma :: DName f2 :: DColon :: v2 ++ DCloseB :: r.
Proof. unfold dstruct. norm_app. reflexivity. Qed.

Lemma dtuple_app n fs r : dtuple n fs ++ r = DName n :: DOpenP :: djoin fs ++ DCloseP :: r.
Proof. unfold dtuple. norm_app. reflexivity. Qed.

Lemma dlist_app items r : dlist items ++ r = DOpenS :: djoin items ++ DCloseS :: r.
Proof. unfold dlist. norm_app. reflexivity. Qed.

Lemma debug_span_decode i s1 e1 s2 e2 r1 r2 :
  debug_span i s1 e1 ++ r1 = debug_span i s2 e2 ++ r2 -> s1 = s2 /\ e1 = e2 /\ r1 = r2.
Proof.
  unfold debug_span, dstruct. cbn [map djoin fst snd app]. intros H. injection H as _ -> -> ->. auto.
Qed.

(* [g] is uniquely readable at [x]: a token list that goes on like a rendering of [x] is the rendering of
   an [f]-equal value, followed by the same rest *)
Definition decodes {A} (f : A -> A -> bool) (g : A -> list dtoken) (x : A) : Prop :=
  forall y r1 r2, g x ++ r1 = g y ++ r2 -> f x y = true /\ r1 = r2.

(* unique decoding of `a, b, c` followed by a closing token *)
Lemma djoin_decode {A} (f : A -> A -> bool) (g : A -> list dtoken) (c : dtoken) :
  c <> DComma ->
  (forall x r, hd c (g x ++ r) <> c) ->
  forall l1, Forall (decodes f g) l1 ->
  forall l2 r1 r2,
    djoin (map g l1) ++ c :: r1 = djoin (map g l2) ++ c :: r2 ->
    list_eqb f l1 l2 = true /\ r1 = r2.
Proof.
  intros Hc Hhead l1 HF. induction HF as [|x l1 Hx _ IH]; intros [|y l2] r1 r2 H; cbn [map djoin] in H.
  - injection H as ->. split; reflexivity.
  - exfalso. apply (f_equal (hd c)) in H. rewrite <- app_assoc in H. exact (Hhead _ _ (eq_sym H)).
  - exfalso. apply (f_equal (hd c)) in H. rewrite <- app_assoc in H. exact (Hhead _ _ H).
  - rewrite <- !app_assoc in H. apply Hx in H as [Hxy H].
    cbn [list_eqb]. rewrite Hxy. cbn [andb].
    destruct l1 as [|x' l1], l2 as [|y' l2].
    + injection H as ->. split; reflexivity.
    + exfalso. injection H as H _. exact (Hc H).
    + exfalso. injection H as H _. exact (Hc (eq_sym H)).
    + injection H as H. apply (IH (y' :: l2)). exact H.
Qed.

Definition dec (i : list byte) : tnode -> Prop := decodes (eq_m i) (debug_m i).

Lemma dec_list i l : Forall (dec i) l -> decodes (list_eqb (eq_m i)) (fun l => dlist (map (debug_m i) l)) l.
Proof.
  intros HF l' r1 r2 H. rewrite !dlist_app in H. injection H as H. revert H.
  apply djoin_decode; [discriminate | apply debug_head_ne; exact (fun _ F => F) | exact HF].
Qed.

Lemma dec_field {A} f (g : A -> list dtoken) x : decodes f g x ->
  forall n fd n' fd' y r1 r2, dstruct n [(fd, g x)] ++ r1 = dstruct n' [(fd', g y)] ++ r2 ->
  fd = fd' /\ f x y = true /\ r1 = r2.
Proof.
  intros D n fd n' fd' y r1 r2 H. apply dstruct1_inv in H as [-> H].
  apply D in H as [E H]. injection H as ->. auto.
Qed.

Lemma ditem_cons_app i x sk m r :
  ditem i (x :: sk, m) ++ r =
  [DName DnSkipped; DOpenB; DName DnSkippedField; DColon] ++ dlist (map (debug_m i) (x :: sk)) ++
    DComma :: DName DnMatched :: DColon :: debug_m i m ++ DCloseB :: r.
Proof. unfold ditem. cbn [fst snd]. apply dstruct2_app. Qed.

Lemma dec_item i a : Pitem (dec i) a -> decodes (item_eqb i) (ditem i) a.
Proof.
  intros [Hsk Hm] b r1 r2 H. destruct a as [ska ma], b as [skb mb]. unfold item_eqb.
  cbn [fst snd] in *. destruct ska as [|x ska], skb as [|y skb].
  - apply Hm in H as [H ->]. split; [exact H | reflexivity].
  - exfalso. rewrite ditem_cons_app in H. exact (debug_head_ne i (DName DnSkipped) (fun _ F => F) _ _ (f_equal (hd _) H)).
  - exfalso. rewrite ditem_cons_app in H. exact (debug_head_ne i (DName DnSkipped) (fun _ F => F) _ _ (f_equal (hd _) (eq_sym H))).
  - rewrite !ditem_cons_app in H. apply app_inv_head in H.
    apply (dec_list i _ Hsk) in H as [Hl H]. injection H as H. apply Hm in H as [Hmm H]. injection H as ->.
    rewrite Hl, Hmm. split; reflexivity.
Qed.

Lemma dec_items i l : Forall (Pitem (dec i)) l -> decodes (list_eqb (item_eqb i)) (fun l => dlist (map (ditem i) l)) l.
Proof.
  intros HF l' r1 r2 H. rewrite !dlist_app in H. injection H as H. revert H.
  apply djoin_decode; [discriminate | intros x r; apply ditem_head; left; reflexivity | exact (Forall_impl _ (dec_item i) HF)].
Qed.

Lemma dpair_app da db r :
  (DOpenP :: djoin [da; db] ++ [DCloseP]) ++ r = DOpenP :: da ++ DComma :: db ++ DCloseP :: r.
Proof. norm_app. reflexivity. Qed.

(* the `span` field of a rule node up to the end of the struct; [comma]: a `content` field precedes it *)
Definition span_tail i (comma : bool) (sp : option (nat * nat)) (k : list dtoken) : list dtoken :=
  match sp with
  | Some (s, e) =>
      (if comma then [DComma; DName DnSpanField; DColon] else [DName DnSpanField; DColon]) ++ debug_span i s e ++ DCloseB :: k
  | None => DCloseB :: k
  end.

Lemma span_tail_decode i b sp sp' k k' : span_tail i b sp k = span_tail i b sp' k' -> sp = sp' /\ k = k'.
Proof.
  destruct sp as [[s e]|], sp' as [[s' e']|], b; cbn [span_tail]; intros H; try discriminate H.
  1, 2: apply app_inv_head, debug_span_decode in H as (-> & -> & H); injection H as ->; auto.
  1, 2: injection H as ->; auto.
Qed.

Lemma debug_rule_app i r c sp k :
  debug_m i (NRule r c sp) ++ k =
  DName (DnRule r) :: DOpenB ::
    match c with
    | Some u => DName DnContent :: DColon :: debug_m i u ++ span_tail i true sp k
    | None => span_tail i false sp k
    end.
Proof.
  destruct c as [u|], sp as [[s e]|]; cbn [debug_m app span_tail];
    [apply dstruct2_app | apply dstruct1_app | apply dstruct1_app | reflexivity].
Qed.

Lemma dec_all i t1 : dec i t1.
Proof.
  induction t1 as [ | s e | ck c | | | nk | sk s e | items IH | n v u IH | [u|] IH | bd items IH | l IH | u IH | | u IH | | [|] | l IH | pa pb IHa IHb | | r c sp IH ] using tnode_nested_ind;
    intros t2 r1 r2 H; pose proof (head_inv i t2 DComma r2) as Hs; rewrite <- H in Hs;
    cbn [hd app debug_m dstruct dtuple dlist shape] in Hs;
    (* a node without fields: the same token, so the same value *)
    try (subst t2; exact (conj eq_refl (app_inv_head _ _ _ H))).
  - destruct Hs as (s' & e' & ->). apply dstruct1_inv in H as [_ H]. injection H as Ht ->.
    split; [apply bytes_eqb_iff; exact Ht | reflexivity].
  - destruct ck; destruct Hs as (c' & ->); apply dstruct1_inv in H as [_ H]; injection H as -> ->;
      (split; [|reflexivity]); apply andb_true_iff; (split; [apply chk_eqb_iff | apply N.eqb_eq]); reflexivity.
  - destruct Hs as (nk' & ->). apply dstruct1_inv in H as [_ H]. injection H as -> ->.
    split; [apply nlkind_eqb_iff|]; reflexivity.
  - destruct Hs as (s' & e' & ->). apply dstruct1_inv in H as [_ H]. apply debug_span_decode in H as (-> & -> & [= ->]).
    split; [|reflexivity]. apply andb_true_iff. split; [apply spk_eqb_iff | apply span_eqb_iff]; reflexivity.
  - destruct Hs as (items' & ->). cbn [debug_m] in H. rewrite !dtuple_app in H. injection H as _ H. revert H.
    apply (djoin_decode (item_eqb i) (ditem i));
      [discriminate | intros x r; apply ditem_head; right; reflexivity | exact (Forall_impl _ (dec_item i) IH)].
  - destruct Hs as (v' & u' & ->). destruct (dec_field _ _ u IH _ _ _ _ u' r1 r2 H) as (Hv & Hu & ->).
    injection Hv as ->. cbn [eq_m]. rewrite !Nat.eqb_refl, Hu. split; reflexivity.
  - destruct Hs as (u' & ->). cbn [debug_m] in H. rewrite !dtuple_app in H. cbn [djoin] in H.
    rewrite !app_nil_r in H. injection H as H. apply IH in H as [Hu H]. injection H as ->.
    split; [exact Hu | reflexivity].
  - destruct bd; destruct Hs as (items' & ->);
      exact (proj2 (dec_field _ _ items (dec_items i items IH) _ _ _ _ items' r1 r2 H)).
  - destruct Hs as (l' & ->). exact (proj2 (dec_field _ _ l (dec_list i l IH) _ _ _ _ l' r1 r2 H)).
  - destruct Hs as (u' & ->). exact (proj2 (dec_field _ _ u IH _ _ _ _ u' r1 r2 H)).
  - destruct Hs as (u' & ->). exact (proj2 (dec_field _ _ u IH _ _ _ _ u' r1 r2 H)).
  - destruct Hs as (l' & ->). exact (dec_list i l IH l' r1 r2 H).
  - destruct Hs as (pa' & pb' & ->). cbn [debug_m] in H. rewrite !dpair_app in H. injection H as H.
    apply IHa in H as [Ha H]. injection H as H. apply IHb in H as [Hb H]. injection H as ->.
    cbn [eq_m]. rewrite Ha, Hb. split; reflexivity.
  - destruct Hs as (c' & sp' & ->). rewrite !debug_rule_app in H. injection H as H.
    cbn [eq_m]. rewrite N.eqb_refl. destruct c as [u|], c' as [u'|].
    + injection H as H. apply IH in H as [Hu H]. apply span_tail_decode in H as [-> ->].
      cbn [opt_eqb andb]. rewrite Hu. split; [apply (opt_eqb_iff _ span_eqb_iff)|]; reflexivity.
    + destruct sp' as [[s' e']|]; discriminate H.
    + destruct sp as [[s e]|]; discriminate H.
    + apply span_tail_decode in H as [-> ->]. split; [apply (opt_eqb_iff _ span_eqb_iff)|]; reflexivity.
Qed.

Theorem eq_debug_iff i t1 t2 : eq_m i t1 t2 = true <-> debug_m i t1 = debug_m i t2.
Proof.
  split.
  - intros H. apply (fwd_all i t1 t2 H).
  - intros H. apply (dec_all i t1 t2 [] []). rewrite !app_nil_r. exact H.
Qed.

Theorem eq_hash i t1 t2 : eq_m i t1 t2 = true -> hash_m i t1 = hash_m i t2.
Proof. intros H. apply (fwd_all i t1 t2 H). Qed.

(* `clone()` is a structural copy: on the model it is the identity, so "a clone equals its original and
   hashes equally" is reflexivity (the hash half is [f_equal]) *)
Theorem eq_refl_m i t : eq_m i t t = true.
Proof. apply eq_debug_iff. reflexivity. Qed.

Theorem eq_sym_m i t1 t2 : eq_m i t1 t2 = eq_m i t2 t1.
Proof. apply eq_true_iff_eq. split; intros H; apply eq_debug_iff, eq_sym, eq_debug_iff, H. Qed.

Theorem eq_trans_m i t1 t2 t3 : eq_m i t1 t2 = true -> eq_m i t2 t3 = true -> eq_m i t1 t3 = true.
Proof. intros H1 H2. apply eq_debug_iff in H1, H2. apply eq_debug_iff. exact (eq_trans H1 H2). Qed.

(* `!=` *)
Theorem ne_debug_iff i t1 t2 : eq_m i t1 t2 = false <-> debug_m i t1 <> debug_m i t2.
Proof. rewrite <- not_true_iff_false. apply not_iff_compat, eq_debug_iff. Qed.
