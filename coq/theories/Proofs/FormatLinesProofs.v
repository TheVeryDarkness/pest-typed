(* C14, the parts of Model/Format.v below the layout.  The position-driven line iterator (lines_full) yields
   exactly the pieces of split_inclusive('\n'), within its fuel, over every string that has a character
   boundary after each byte 10 (lf_cuts); that is all it needs of UTF-8, and every `encode cs` has it.
   Then the two number loops (ceil_log10, digits) and the picture table (pic). *)
From Coq Require Import List NArith Arith Bool Lia.
From PT Require Import Model.Base Model.LinesSpec Model.Format Model.FormatSpec.
From PT Require Import Proofs.ListFacts Proofs.BaseFacts.
From PT Require Proofs.LinesProofs Proofs.SpanProofs.
Import ListNotations.
Local Open Scope nat_scope.

Lemma app_eq_notin : forall (A : Type) (x : A) (l r p q : list A),
  ~ In x l -> l ++ r = p ++ x :: q -> exists p2, p = l ++ p2 /\ r = p2 ++ x :: q.
Proof.
  intros A x l. induction l as [|y l IH]; intros r p q Hnin Heq.
  - exists p. split; [reflexivity | exact Heq].
  - destruct p as [|z p]; injection Heq as Hy Heq.
    + elim Hnin. left. exact Hy.
    + destruct (IH r p q (fun Hi => Hnin (or_intror Hi)) Heq) as [p2 [Hp Hr]].
      exists p2. split; [| exact Hr]. cbn [app]. rewrite Hy, Hp. reflexivity.
Qed.

Lemma add_high_ne10 : forall a x : N, (128 <= a)%N -> (a + x)%N = 10%N -> False.
Proof. intros a x Ha H. lia. Qed.

Lemma enc_lf : forall c, enc c = [10%N] \/ ~ In 10%N (enc c).
Proof.
  intro c. unfold enc.
  destruct (N.ltb_spec c 128) as [H1|H1].
  - destruct (N.eq_dec c 10) as [E|E].
    + left. rewrite E. reflexivity.
    + right. intros [H|[]]. apply E. exact H.
  - right.
    destruct (c <? 2048)%N; [| destruct (c <? 65536)%N];
      cbn [In]; intro H;
      repeat (destruct H as [H|H]; [apply add_high_ne10 in H; [exact H | discriminate] |]); exact H.
Qed.

Lemma encode_split_lf : forall cs (p q : list byte),
  encode cs = p ++ 10%N :: q ->
  exists cs1 cs2, cs = cs1 ++ cs2 /\ encode cs1 = p ++ [10%N] /\ encode cs2 = q.
Proof.
  induction cs as [|c cs IH]; intros p q Heq.
  - destruct p; discriminate Heq.
  - unfold encode in Heq. cbn [flat_map] in Heq. fold (encode cs) in Heq.
    destruct (enc_lf c) as [E|E].
    + rewrite E in Heq. destruct p as [|x p].
      * cbn [app] in Heq. injection Heq as Hq.
        exists [c], cs. split; [reflexivity|]. split; [| exact Hq].
        unfold encode. cbn [flat_map]. rewrite E. reflexivity.
      * cbn [app] in Heq. injection Heq as Hx Heq.
        destruct (IH p q Heq) as [cs1 [cs2 [Hcs [H1 H2]]]].
        exists (c :: cs1), cs2. split; [rewrite Hcs; reflexivity|]. split; [| exact H2].
        unfold encode. cbn [flat_map]. fold (encode cs1). rewrite E, H1, <- Hx. reflexivity.
    + destruct (app_eq_notin _ _ _ _ _ _ E Heq) as [p2 [Hp Hr]].
      destruct (IH p2 q Hr) as [cs1 [cs2 [Hcs [H1 H2]]]].
      exists (c :: cs1), cs2. split; [rewrite Hcs; reflexivity|]. split; [| exact H2].
      unfold encode. cbn [flat_map]. fold (encode cs1). rewrite H1, Hp, app_assoc. reflexivity.
Qed.

Lemma encode_head : forall cs b r, encode cs = b :: r -> is_cont b = false.
Proof.
  induction cs as [|c cs IH]; intros b r Heq.
  - discriminate Heq.
  - unfold encode in Heq. cbn [flat_map] in Heq.
    destruct (LinesUtf8.enc_shape c) as [b0 [r0 [E [Hc _]]]]. rewrite E in Heq.
    cbn [app] in Heq. injection Heq as Hb _. rewrite <- Hb. exact Hc.
Qed.

Lemma is_boundary_0 : forall s, is_boundary s 0 = true.
Proof. intro s. reflexivity. Qed.

Definition lf_cuts (s : list byte) : Prop :=
  forall p q : list byte, s = p ++ 10%N :: q -> is_boundary s (S (length p)) = true.

Lemma encode_lf_cuts : forall cs, lf_cuts (encode cs).
Proof.
  intros cs p q Heq.
  destruct (encode_split_lf cs p q Heq) as [cs1 [cs2 [_ [_ H2]]]].
  rewrite Heq.
  replace (p ++ 10%N :: q) with ((p ++ [10%N]) ++ q) by (rewrite <- app_assoc; reflexivity).
  replace (S (length p)) with (length (p ++ [10%N])) by (rewrite app_length; cbn [length]; lia).
  unfold is_boundary. rewrite nth_error_app2, Nat.sub_diag by reflexivity.
  destruct q as [|b q'].
  - cbn [nth_error]. rewrite app_nil_r, Nat.eqb_refl. apply orb_true_r.
  - cbn [nth_error]. rewrite (encode_head cs2 b q' H2). apply orb_true_r.
Qed.

(* char and byte are both N, so split_incl is convertible with LinesSpec.split_lines and the lemmas of
   SpanProofs about split_lines, upto_lf and after_lf apply to bytes as they stand *)

Lemma concat_split_incl s : concat (split_incl s) = s.
Proof. exact (SpanProofs.concat_split_lines s). Qed.

Lemma split_incl_nonempty s : s <> [] -> split_incl s <> [].
Proof. intros H E. exact (H (SpanProofs.split_lines_nil s E)). Qed.

Lemma split_incl_unfold s : s <> [] -> split_incl s = upto_lf s :: split_incl (after_lf s).
Proof. exact (SpanProofs.split_lines_unfold s). Qed.

Lemma upto_lf_not_nil (s : list byte) : s <> [] -> upto_lf s <> [].
Proof. destruct s as [|b r]; [congruence|]. intros _. cbn [upto_lf]. destruct (Lines.is_lf b); discriminate. Qed.

Lemma first_lf_upto : forall (s : list byte) i, s <> [] ->
  match first_lf s i with Some j => S j | None => i + length s end = i + length (upto_lf s).
Proof.
  induction s as [|b r IH]; intros i H; [contradiction|].
  cbn [first_lf upto_lf]. unfold Lines.is_lf, Lines.LF.
  destruct (b =? 10)%N; cbn [length]; [lia|].
  destruct r as [|b2 r2]; [cbn [first_lf upto_lf length]; lia|].
  specialize (IH (S i) ltac:(discriminate)).
  destruct (first_lf (b2 :: r2) (S i)) as [j|]; cbn [length] in *; lia.
Qed.

Lemma last_lf_app_lf : forall (p : list byte) i acc, last_lf (p ++ [10%N]) i acc = Some (i + length p).
Proof.
  induction p as [|b p IH]; intros i acc; cbn [app last_lf length].
  - rewrite N.eqb_refl, Nat.add_0_r. reflexivity.
  - rewrite IH, Nat.add_succ_comm. reflexivity.
Qed.

Definition line_start (pre : list byte) : Prop := pre = [] \/ exists p : list byte, pre = p ++ [10%N].

(* the iterator only stands at line starts or at the end, both of which are boundaries *)
Lemma cut_boundary (s u v : list byte) : s = u ++ v -> lf_cuts s -> v = [] \/ line_start u ->
  is_boundary s (length u) = true.
Proof.
  intros -> Hcut [->|[->|[p ->]]]; [rewrite app_nil_r; apply is_boundary_length|reflexivity|].
  rewrite app_length, Nat.add_1_r. apply (Hcut p v). rewrite <- app_assoc. reflexivity.
Qed.

Lemma slice_line (s pre l t : list byte) : s = (pre ++ l) ++ t ->
  is_boundary s (length pre) = true -> is_boundary s (length (pre ++ l)) = true ->
  slice_opt s (length pre) (length (pre ++ l)) = Some l.
Proof.
  intros Hs Hb1 Hb2. rewrite slice_opt_intro by (assumption || (rewrite ?Hs, !app_length; lia)).
  rewrite app_length, Nat.add_comm, Nat.add_sub, Hs, <- app_assoc, skipn_length_app, firstn_length_app. reflexivity.
Qed.

Lemma find_line_start_at (s pre rest : list byte) : s = pre ++ rest -> rest <> [] -> line_start pre ->
  fmt_find_line_start s (length pre) = length pre.
Proof.
  intros -> Hr Hpre. unfold fmt_find_line_start. rewrite firstn_length_app.
  destruct (pre ++ rest) as [|x0 t0] eqn:E; [destruct pre, rest; discriminate || contradiction|].
  destruct Hpre as [->|[p ->]]; [reflexivity|].
  rewrite last_lf_app_lf, app_length. cbn [length]. lia.
Qed.

Lemma find_line_end_at (s pre rest : list byte) : s = pre ++ rest -> rest <> [] ->
  fmt_find_line_end s (length pre) = length (pre ++ upto_lf rest).
Proof.
  intros -> Hr. unfold fmt_find_line_end. rewrite skipn_length_app, !app_length.
  destruct (pre ++ rest) as [|x0 t0] eqn:E; [destruct pre, rest; discriminate || contradiction|].
  destruct (Nat.eqb_spec (length pre) (length pre + length rest - 1)) as [E1|E1].
  - destruct rest as [|b [|b2 r2]]; [contradiction| |cbn [length] in E1; lia].
    cbn [upto_lf]. destruct (Lines.is_lf b); reflexivity.
  - exact (first_lf_upto rest (length pre) Hr).
Qed.

Lemma lines_fuel_ok : forall f (s pre rest : list byte),
  s = pre ++ rest -> lf_cuts s -> length rest < f -> rest = [] \/ line_start pre ->
  lines_fuel f s (length s) (length pre) = ROk (split_incl rest).
Proof.
  induction f as [|f IH]; intros s pre rest Hs Hcut Hf Hpre; [lia|].
  cbn [lines_fuel].
  assert (Hlen : length s = length pre + length rest) by (rewrite Hs; apply app_length).
  rewrite (proj2 (Nat.ltb_ge _ _)) by lia.
  pose proof (cut_boundary s pre rest Hs Hcut Hpre) as Hb1.
  rewrite slice_opt_intro by (lia || assumption || apply is_boundary_length).
  destruct (Nat.eqb_spec (length pre) (length s)) as [E|E].
  - destruct rest; [reflexivity|cbn [length] in Hlen; lia].
  - assert (Hr : rest <> []) by (intros ->; cbn [length] in Hlen; lia).
    destruct Hpre as [?|Hpre]; [contradiction|].
    rewrite (find_line_start_at s pre rest Hs Hr Hpre), (find_line_end_at s pre rest Hs Hr).
    rewrite (split_incl_unfold rest Hr).
    pose proof (upto_lf_not_nil rest Hr) as Hl. pose proof (SpanProofs.upto_lf_ends rest) as He.
    rewrite <- (LinesProofs.upto_after_lf rest), app_assoc in Hs.
    rewrite <- (LinesProofs.upto_after_lf rest), app_length in Hf.
    set (l := upto_lf rest) in *. set (t := after_lf rest) in *. clearbody l t.
    assert (Hnext : t = [] \/ line_start (pre ++ l)).
    { destruct t; [left; reflexivity|right; right].
      destruct He as (l0 & x & -> & ->%N.eqb_eq); [discriminate|]. exists (pre ++ l0). apply app_assoc. }
    rewrite (slice_line s pre l t Hs Hb1 (cut_boundary s _ t Hs Hcut Hnext)).
    rewrite (IH s (pre ++ l) t Hs Hcut); [reflexivity| |exact Hnext].
    (* upto_lf is typed on chars: lia would take `length` at char and at byte for different terms *)
    destruct l; [contradiction|]. cbn [length] in Hf. change char with byte in Hf. lia.
Qed.

Lemma lines_full_lf_cuts s : lf_cuts s -> lines_full s = ROk (split_incl s).
Proof.
  intros Hcut. apply (lines_fuel_ok (S (length s)) s [] s eq_refl Hcut (Nat.lt_succ_diag_r _)).
  right. left. reflexivity.
Qed.

(* validity of the characters plays no part *)
Theorem lines_full_encode : forall cs,
  valid_str cs -> lines_full (encode cs) = ROk (split_incl (encode cs)).
Proof.
  intros cs _. apply lines_full_lf_cuts. apply encode_lf_cuts.
Qed.

Lemma digits_value_snoc : forall t c,
  digits_value (t ++ [c]) = 10 * digits_value t + N.to_nat (c - 48)%N.
Proof.
  intros t c. unfold digits_value. rewrite fold_left_app. reflexivity.
Qed.

Lemma digit_char_value : forall k, N.to_nat (48 + N.of_nat k - 48)%N = k.
Proof.
  intro k. rewrite N.add_comm, N.add_sub. apply Nat2N.id.
Qed.

(* ceil_log10 and digits divide alike, so on the same fuel the count goes up by one for each digit
   written; the digits are put in front of the accumulator and their value is n *)
Lemma number_loops : forall f n acc d, n < f ->
  exists t, digits_fuel f n acc = ROk (t ++ acc) /\ digits_value t = n /\
            ceil_log10_fuel f n (S d) = ROk (d + length t).
Proof.
  induction f as [|f IH]; intros n acc d Hf; [lia|].
  cbn [digits_fuel ceil_log10_fuel].
  destruct (Nat.leb_spec 10 n) as [H|H].
  - destruct (IH (n / 10) ((48 + N.of_nat (n mod 10))%N :: acc) (S d)) as (t & E & Hv & Hc).
    { apply Nat.lt_le_trans with n; [apply Nat.div_lt|]; lia. }
    exists (t ++ [(48 + N.of_nat (n mod 10))%N]).
    rewrite E, Hc, <- app_assoc, digits_value_snoc, Hv, digit_char_value, app_length, Nat.add_1_r, Nat.add_succ_comm.
    split; [reflexivity|]. split; [symmetry; apply Nat.div_mod; discriminate|reflexivity].
  - exists [(48 + N.of_nat (n mod 10))%N].
    split; [reflexivity|]. split; [|rewrite Nat.add_1_r; reflexivity].
    unfold digits_value. cbn [fold_left]. rewrite digit_char_value. apply Nat.mod_small, H.
Qed.

Lemma digits_ok : forall n,
  exists t, digits n = ROk t /\ digits_value t = n /\
            (forall d, ceil_log10 n = ROk d -> length t = d).
Proof.
  intro n. destruct (number_loops (S n) n [] 0 (Nat.lt_succ_diag_r n)) as (t & E & Hv & Hc).
  exists t. rewrite app_nil_r in E. unfold ceil_log10. rewrite Hc.
  split; [exact E|]. split; [exact Hv|]. intros d [= <-]. reflexivity.
Qed.

(* the 33-entry match is the arithmetic rule: six low bits decide, a seventh above 111111 *)
Lemma pic_is_pic_spec : forall c, pic c = pic_spec c.
Proof.
  intro c. destruct c as [|p]; [reflexivity|].
  do 6 (destruct p as [p|p|]; [| |reflexivity]); try reflexivity.
  destruct p; reflexivity.
Qed.
