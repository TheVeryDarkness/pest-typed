(* C14: display_span and display_position of Model/Format.v against Model/FormatSpec.v.
   For an offset x the locating loops of the code stop at the first line whose end is >= x ([holds]); that is
   the line of the byte BEFORE x (impl_line), where the specification asks for the line of the byte AT the
   offset (cursor_line).  What the code prints is therefore characterised over impl_line (display_span_spec);
   the two notions differ exactly at the line starts (cursor_line_step), and that difference is finding F4b. *)
From Coq Require Import List NArith Arith Bool Lia.
From PT Require Import Model.Base Model.Format Model.FormatSpec Proofs.ListFacts Proofs.BaseFacts Proofs.FormatLinesProofs.
From PT Require Proofs.LinesProofs.
Import ListNotations.
Local Open Scope nat_scope.

(* FormatSpec.line_off s i is off (split_incl s) i; from i = length L on it is the total length *)
Definition off (L : list (list byte)) (i : nat) : nat := length (concat (firstn i L)).

Lemma off_0 L : off L 0 = 0.
Proof. reflexivity. Qed.

Lemma off_cons l r i : off (l :: r) (S i) = length l + off r i.
Proof. unfold off. cbn [firstn concat]. apply app_length. Qed.

Lemma off_le L i : off L i <= length (concat L).
Proof. unfold off. rewrite <- (firstn_skipn i L) at 2. rewrite concat_app, app_length. lia. Qed.

Lemma off_all L i : length L <= i -> off L i = length (concat L).
Proof. intros H. unfold off. rewrite firstn_all2 by exact H. reflexivity. Qed.

Lemma off_S L i : i < length L -> off L (S i) = off L i + length (nth i L []).
Proof.
  intros Hi. unfold off. rewrite (firstn_S_nth _ [] L i Hi), concat_app, app_length.
  cbn [concat]. rewrite app_nil_r. reflexivity.
Qed.

Lemma off_mono L i j : i <= j -> off L i <= off L j.
Proof.
  intros H. unfold off. rewrite <- (Nat.min_l i j H), <- firstn_firstn. apply (off_le (firstn j L) i).
Qed.

(* FormatSpec.count_lf (bytes, is_lfb) is convertible with LinesSpec.count_lf (chars, is_lf) *)
Lemma count_lf_app x y : count_lf (x ++ y) = count_lf x + count_lf y.
Proof. exact (LinesProofs.count_lf_app x y). Qed.

Lemma count_lf_cons b l : count_lf (b :: l) = (if (b =? 10)%N then 1 else 0) + count_lf l.
Proof. unfold count_lf. cbn [filter]. unfold is_lfb. destruct (b =? 10)%N; reflexivity. Qed.

Inductive lines_ok : list (list byte) -> Prop :=
| lo_nil : lines_ok []
| lo_cons : forall l r,
    l <> [] ->
    (forall k, k < length l -> count_lf (firstn k l) = 0) ->
    (r <> [] -> count_lf l = 1) ->
    lines_ok r -> lines_ok (l :: r).

Lemma split_incl_ok s : lines_ok (split_incl s).
Proof.
  induction s as [|b r IH]; [constructor|].
  cbn [split_incl]. destruct (b =? 10)%N eqn:Hb.
  - constructor; [discriminate| | |exact IH].
    + intros [|k] Hk; [reflexivity|cbn in Hk; lia].
    + intros _. rewrite count_lf_cons, Hb. reflexivity.
  - destruct IH as [|l ls Hne Hpre Hcnt Hok].
    + constructor; [discriminate| |congruence|constructor].
      intros [|k] Hk; [reflexivity|cbn in Hk; lia].
    + constructor; [discriminate| | |exact Hok].
      * intros [|k] Hk; [reflexivity|]. cbn [firstn]. rewrite count_lf_cons, Hb.
        apply Hpre. cbn [length] in Hk. lia.
      * intros Hr. rewrite count_lf_cons, Hb. apply Hcnt, Hr.
Qed.

Lemma off_lt_S L i : lines_ok L -> i < length L -> off L i < off L (S i).
Proof.
  intros Hok. revert i. induction Hok as [|l r Hne _ _ _ IH]; intros i Hi; [cbn in Hi; lia|].
  destruct i as [|i].
  - rewrite off_cons, !off_0. destruct l; [congruence|cbn [length]; lia].
  - rewrite !off_cons. cbn [length] in Hi. specialize (IH i). lia.
Qed.

Lemma count_in_line L : lines_ok L -> forall i k,
  i < length L -> off L i <= k < off L (S i) -> count_lf (firstn k (concat L)) = i.
Proof.
  induction 1 as [|l r Hne Hpre Hcnt Hok IH]; intros i k Hi Hk; [cbn in Hi; lia|].
  cbn [concat]. rewrite firstn_app.
  destruct i as [|i].
  - rewrite off_0, off_cons, off_0 in Hk.
    replace (k - length l) with 0 by lia. cbn [firstn]. rewrite app_nil_r. apply Hpre. lia.
  - rewrite !off_cons in Hk. cbn [length] in Hi.
    rewrite firstn_all2 by lia. rewrite count_lf_app.
    rewrite Hcnt by (destruct r; [cbn in Hi; lia|discriminate]).
    rewrite IH with (i := i) by lia. reflexivity.
Qed.

(* line i is the one the two loops of display_span stop at for the offset x:
   the first line whose end is >= x *)
Definition holds (L : list (list byte)) (i x : nat) : Prop :=
  off L i <= x <= off L (S i) /\ (0 < i -> off L i < x).

Lemma holds_S L i k : holds L i (S k) <-> off L i <= k < off L (S i).
Proof. unfold holds. destruct i; [rewrite off_0|]; lia. Qed.

Lemma holds_le L i j a b : holds L i a -> holds L j b -> a <= b -> i <= j.
Proof.
  intros [Ha Ha'] [Hb _] Hab. destruct (Nat.le_gt_cases i j) as [H|H]; [exact H|].
  pose proof (off_mono L (S j) i H). lia.
Qed.

Lemma holds_unique : forall L i j x, holds L i x -> holds L j x -> i = j.
Proof.
  intros L i j x Hi Hj.
  apply Nat.le_antisymm; [apply (holds_le L i j x x)|apply (holds_le L j i x x)]; auto.
Qed.

Lemma holds_exists L : L <> [] -> forall x, x <= length (concat L) ->
  exists i, i < length L /\ holds L i x.
Proof.
  induction L as [|l r IH]; intros Hne x Hx; [congruence|].
  cbn [concat] in Hx. rewrite app_length in Hx.
  destruct (Nat.le_gt_cases x (length l)) as [H|H].
  - exists 0. unfold holds. rewrite off_cons, !off_0. cbn [length]. lia.
  - assert (Hr : r <> []) by (intros ->; cbn in Hx; lia).
    destruct (IH Hr (x - length l)) as (i & Hi & Hh); [lia|].
    exists (S i). split; [cbn [length]; lia|].
    unfold holds in *. rewrite !off_cons. destruct i; [rewrite off_0 in *|]; lia.
Qed.

Lemma holds_impl_line s i x : i < nlines s -> holds (split_incl s) i x -> impl_line s x = i.
Proof.
  intros Hi Hh. unfold impl_line. destruct x as [|k]; cbn [Nat.eqb Nat.sub].
  - unfold holds in Hh. lia.
  - rewrite Nat.sub_0_r. unfold line_idx. rewrite <- (concat_split_incl s) at 1.
    apply count_in_line; [apply split_incl_ok|exact Hi|apply holds_S, Hh].
Qed.

Lemma impl_line_holds s x : s <> [] -> x <= length s ->
  impl_line s x < nlines s /\ holds (split_incl s) (impl_line s x) x.
Proof.
  intros Hs Hx.
  destruct (holds_exists (split_incl s) (split_incl_nonempty s Hs) x) as (i & Hi & Hh);
    [rewrite concat_split_incl; exact Hx|].
  rewrite (holds_impl_line s i x Hi Hh). split; assumption.
Qed.

Lemma cursor_impl s p : s <> [] ->
  cursor_line s p = impl_line s (if p <? length s then S p else length s).
Proof.
  intros Hs. unfold cursor_line. destruct (p <? length s).
  - unfold impl_line. cbn [Nat.eqb Nat.sub]. rewrite Nat.sub_0_r. reflexivity.
  - symmetry. unfold nlines. pose proof (split_incl_nonempty s Hs) as Hne. pose proof (split_incl_ok s) as Hok.
    set (L := split_incl s) in *.
    assert (Hn : 0 < length L) by (destruct L; [congruence|cbn; lia]).
    apply holds_impl_line; [unfold nlines; fold L; lia|]. fold L.
    pose proof (off_lt_S L (length L - 1) Hok) as Hlt. unfold holds.
    replace (S (length L - 1)) with (length L) in * by lia.
    rewrite (off_all L (length L)) in * by reflexivity. unfold L in *. rewrite concat_split_incl in *. lia.
Qed.

Lemma cursor_line_spec s p : s <> [] -> p <= length s ->
  cursor_line s p < nlines s /\
  off (split_incl s) (cursor_line s p) <= p <= off (split_incl s) (S (cursor_line s p)) /\
  (p < length s -> p < off (split_incl s) (S (cursor_line s p))).
Proof.
  intros Hs Hp. rewrite (cursor_impl s p Hs).
  destruct (Nat.ltb_spec p (length s)) as [H|H].
  - destruct (impl_line_holds s (S p) Hs H) as [Hi Hh]. apply holds_S in Hh. lia.
  - destruct (impl_line_holds s (length s) Hs (le_n _)) as [Hi [Hh _]]. lia.
Qed.

(* the two notions of "line of an offset" differ exactly at the line starts *)
Lemma cursor_line_step s a : s <> [] -> a <= length s ->
  cursor_line s a = impl_line s a + (if starts_at_line_start s a then 1 else 0).
Proof.
  intros Hs Ha. rewrite (cursor_impl s a Hs). unfold starts_at_line_start.
  destruct (Nat.ltb_spec a (length s)) as [Hlt|Hge].
  - destruct a as [|k]; [reflexivity|].
    unfold impl_line. cbn [Nat.eqb Nat.sub Nat.ltb Nat.leb andb]. rewrite !Nat.sub_0_r. unfold line_idx.
    rewrite (firstn_S_nth byte 0%N s k) by lia. rewrite count_lf_app, count_lf_cons.
    destruct (nth k s 0 =? 10)%N; reflexivity.
  - replace a with (length s) by lia. rewrite andb_false_r. cbn [andb]. lia.
Qed.

Lemma csub_ok x y : y <= x -> csub x y = ROk (x - y).
Proof. intros H. unfold csub. apply Nat.leb_le in H. rewrite H. reflexivity. Qed.

Lemma find_start_skip i : forall L idx pos a, i <= length L -> i = 0 \/ pos + off L i < a ->
  find_start L idx pos a = find_start (skipn i L) (idx + i) (pos + off L i) a.
Proof.
  induction i as [|i IH]; intros L idx pos a Hi H.
  - cbn [skipn]. rewrite off_0, !Nat.add_0_r. reflexivity.
  - destruct H as [H|H]; [discriminate|]. destruct L as [|l r]; [cbn in Hi; lia|].
    rewrite off_cons, Nat.add_assoc in *. cbn [skipn find_start length] in *.
    rewrite (proj2 (Nat.leb_gt a (pos + length l))) by lia.
    rewrite (IH r (S idx) (pos + length l) a) by lia. rewrite Nat.add_succ_comm. reflexivity.
Qed.

Lemma find_end_as_start : forall L idx pos b,
  find_end L idx pos b = fbind (find_start L idx pos b) (fun r => ROk (fst r)).
Proof.
  induction L as [|l r IH]; intros idx pos b; cbn [find_end find_start]; [reflexivity|].
  destruct (b <=? pos + length l); [|apply IH].
  unfold csub. destruct (pos <=? b); reflexivity.
Qed.

Lemma find_start_skip0 L i x : i <= length L -> (0 < i -> off L i < x) ->
  find_start L 0 0 x = find_start (skipn i L) i (off L i) x.
Proof. intros Hi H. apply (find_start_skip i L 0 0 x Hi). lia. Qed.

Lemma find_start_at L i x : i < length L -> holds L i x ->
  find_start L 0 0 x = ROk (Some (i, x - off L i), (skipn i L, i, off L i)).
Proof.
  intros Hi [Hx Hx']. rewrite (find_start_skip0 L i x) by (exact Hx' || lia).
  rewrite (skipn_nth _ [] L i Hi). cbn [find_start]. rewrite <- off_S by exact Hi.
  rewrite (proj2 (Nat.leb_le _ _)), csub_ok by lia. reflexivity.
Qed.

Lemma locate_span_at L i j a b : i < length L -> j < length L -> holds L i a -> holds L j b -> a <= b ->
  locate_span L a b = ROk ((i, a - off L i), (j, b - off L j)).
Proof.
  intros Hi Hj Ha Hb Hab. unfold locate_span. rewrite (find_start_at L i a Hi Ha). cbn [fbind].
  rewrite find_end_as_start, <- (find_start_skip0 L i b) by (unfold holds in Ha; lia).
  rewrite (find_start_at L j b Hj Hb). reflexivity.
Qed.

Lemma line_boundary s i x : i < nlines s ->
  off (split_incl s) i <= x <= off (split_incl s) (S i) -> is_boundary s x = true ->
  is_boundary (nth_line s i) (x - off (split_incl s) i) = true /\ x - off (split_incl s) i <= length (nth_line s i).
Proof.
  unfold nlines, nth_line. set (L := split_incl s). intros Hi Hx Hb. rewrite off_S in Hx by exact Hi.
  split; [|lia]. rewrite <- (concat_split_incl s) in Hb. fold L in Hb.
  rewrite <- (firstn_skipn i L), (skipn_nth _ [] L i Hi), concat_app in Hb. cbn [concat] in Hb.
  apply (is_boundary_inner (concat (firstn i L)) _ (concat (skipn (S i) L))); [lia|].
  fold (off L i). rewrite Nat.add_comm, Nat.sub_add by lia. exact Hb.
Qed.

Lemma split_at_ok (l : list byte) k : is_boundary l k = true -> k <= length l ->
  split_at l k = ROk (firstn k l, skipn k l).
Proof. intros Hb Hk. unfold split_at. apply Nat.leb_le in Hk. rewrite Hb, Hk. reflexivity. Qed.

(* Partition2: the second cut is made in the part before the first *)
Lemma split_at_firstn (l : list byte) c e : is_boundary l c = true -> c <= e <= length l ->
  split_at (firstn e l) c = ROk (firstn c l, firstn (e - c) (skipn c l)).
Proof.
  intros Hb Hc. rewrite split_at_ok, firstn_firstn, skipn_firstn_comm, Nat.min_l; try reflexivity; try lia.
  - apply (is_boundary_inner [] _ (skipn e l)); [|rewrite firstn_skipn; exact Hb]. rewrite firstn_length. lia.
  - rewrite firstn_length. lia.
Qed.

Lemma ceil_log10_ndigits n : ceil_log10 n = ROk (ndigits n).
Proof.
  unfold ndigits, ceil_log10. destruct (number_loops (S n) n [] 0 (Nat.lt_succ_diag_r n)) as (t & _ & _ & ->).
  reflexivity.
Qed.

Lemma numrow_ok d n : numrow d n = ROk [NumP (num_text d n); Raw SP; NumP [BAR]].
Proof.
  unfold numrow, num_text, fmt_num. destruct (digits_ok n) as (t & Ht & _). rewrite Ht. reflexivity.
Qed.

(* the writes of a snippet, regrouped into rows (number n, text x) *)
Lemma app_row (A : Type) (g1 g2 n x m : list A) :
  (((g1 ++ g2) ++ n) ++ x) ++ m = g1 ++ g2 ++ (n ++ x) ++ m.
Proof. rewrite <- !app_assoc. reflexivity. Qed.

Lemma app_rows (A : Type) (m1 n1 x1 o0 o1 o3 n2 x2 m2 : list A) :
  (((((((m1 ++ n1) ++ x1) ++ o0) ++ o1) ++ o3) ++ n2) ++ x2) ++ m2
  = m1 ++ (n1 ++ x1) ++ o0 ++ o1 ++ o3 ++ (n2 ++ x2) ++ m2.
Proof. rewrite <- !app_assoc. reflexivity. Qed.

Section Snippets.
Variable w : list char -> nat.

Lemma snippet_single_line_ok d line f m l :
  snippet_single_line w d line f m l =
  ROk (gutter d ++ nl ++ render_row d (mk_row (S line) f m l)
       ++ marker_line d (w f) (repeat CARET (w m))).
Proof.
  unfold snippet_single_line. rewrite Nat.add_1_r, numrow_ok. cbn [fapp fbind ok]. apply f_equal, app_row.
Qed.

Lemma snippet_single_pos_ok d line f l :
  snippet_single_pos w d line f l =
  ROk (gutter d ++ nl ++ render_pos_row d (mk_row (S line) f [] l)
       ++ marker_line d (w f) [CARET]).
Proof.
  unfold snippet_single_pos. rewrite Nat.add_1_r, numrow_ok. cbn [fapp fbind ok]. apply f_equal, app_row.
Qed.

Definition opt_row (d n : nat) (o : option (list char)) (e : list piece) : list piece :=
  match o with Some c => render_row d (mk_row n [] c []) | None => e end.

Lemma opt_row_if d n (c : bool) x e :
  opt_row d n (if c then Some x else None) e = if c then render_row d (mk_row n [] x []) else e.
Proof. destruct c; reflexivity. Qed.

Lemma full_covered_opt d n o (m : fr (list piece)) e : m = ROk e ->
  match o with Some l => full_covered d n l | None => m end = ROk (opt_row d n o e).
Proof.
  intros ->. destruct o as [c|]; [|reflexivity].
  unfold full_covered. rewrite numrow_ok. reflexivity.
Qed.

Lemma snippet_multi_line_ok d sl sf sla el ef ela i0 i1 dots i3 :
  snippet_multi_line w d sl sf sla el ef ela i0 i1 dots i3 =
  ROk (marker_line d (w sf) [VEE]
       ++ render_row d (mk_row (S sl) sf sla [])
       ++ opt_row d (2 + sl) i0 []
       ++ opt_row d (3 + sl) i1 (if dots then ellipsis_row d else [])
       ++ opt_row d el i3 []
       ++ render_row d (mk_row (S el) [] ef ela)
       ++ marker_line d (w ef - 1) [CARET]).
Proof.
  unfold snippet_multi_line. rewrite (Nat.add_comm sl 2), (Nat.add_comm sl 3).
  rewrite (full_covered_opt d (2 + sl) i0 _ []), (full_covered_opt d el i3 _ []) by reflexivity.
  rewrite (full_covered_opt d (3 + sl) i1 _ (if dots then ellipsis_row d else [])) by (destruct dots; reflexivity).
  rewrite !Nat.add_1_r, !numrow_ok. cbn [fapp fbind ok]. apply f_equal, app_rows.
Qed.

End Snippets.

(* row i cuts its line at the two offsets taken relative to the start of the line; beyond either end
   of the line firstn and skipn saturate, which is all that max and min in row_of say *)
Lemma row_of_eq s a b i :
  row_of s a b i =
  mk_row (S i) (vis (firstn (a - off (split_incl s) i) (nth_line s i)))
         (vis (firstn (b - off (split_incl s) i - (a - off (split_incl s) i))
                      (skipn (a - off (split_incl s) i) (nth_line s i))))
         (vis (skipn (b - off (split_incl s) i) (nth_line s i))).
Proof.
  unfold row_of. change (line_off s i) with (off (split_incl s) i). cbv zeta.
  set (o := off (split_incl s) i). set (l := nth_line s i).
  rewrite <- Nat.sub_max_distr_r, <- Nat.sub_min_distr_r, Nat.sub_diag, Nat.max_0_r, (Nat.add_comm o), Nat.add_sub.
  destruct (Nat.le_ge_cases (b - o) (length l)) as [H|H]; [rewrite (Nat.min_l _ _ H); reflexivity|].
  rewrite (Nat.min_r _ _ H), skipn_all, (skipn_all2 l H), !(firstn_all2 (skipn (a - o) l)) by (rewrite skipn_length; lia).
  reflexivity.
Qed.

Lemma row_first s a b i : i < nlines s -> off (split_incl s) (S i) <= b ->
  row_of s a b i =
  mk_row (S i) (vis (firstn (a - off (split_incl s) i) (nth_line s i)))
         (vis (skipn (a - off (split_incl s) i) (nth_line s i))) [].
Proof.
  intros Hi Hb. rewrite off_S in Hb by exact Hi. fold (nth_line s i) in Hb.
  rewrite row_of_eq. set (o := off (split_incl s) i) in *. set (l := nth_line s i) in *.
  rewrite (skipn_all2 (n := b - o) l), (firstn_all2 (skipn (a - o) l)) by (rewrite ?skipn_length; lia).
  reflexivity.
Qed.

Lemma row_last s a b j : a <= off (split_incl s) j ->
  row_of s a b j =
  mk_row (S j) [] (vis (firstn (b - off (split_incl s) j) (nth_line s j)))
         (vis (skipn (b - off (split_incl s) j) (nth_line s j))).
Proof.
  intros Ha. rewrite row_of_eq. replace (a - off (split_incl s) j) with 0 by lia.
  rewrite Nat.sub_0_r. reflexivity.
Qed.

Lemma row_mid s a b k : k < nlines s -> a <= off (split_incl s) k -> off (split_incl s) (S k) <= b ->
  row_of s a b k = mk_row (S k) [] (vis (nth_line s k)) [].
Proof.
  intros Hk Ha Hb. rewrite (row_first s a b k Hk Hb). replace (a - off (split_incl s) k) with 0 by lia.
  reflexivity.
Qed.

Lemma span_rows s a b i j : i < j -> j < nlines s -> holds (split_incl s) i a -> holds (split_incl s) j b ->
  row_of s a b i = mk_row (S i) (vis (firstn (a - off (split_incl s) i) (nth_line s i)))
                          (vis (skipn (a - off (split_incl s) i) (nth_line s i))) [] /\
  row_of s a b j = mk_row (S j) [] (vis (firstn (b - off (split_incl s) j) (nth_line s j)))
                          (vis (skipn (b - off (split_incl s) j) (nth_line s j))) /\
  forall k, i < k < j -> row_of s a b k = mk_row (S k) [] (vis (nth_line s k)) [].
Proof.
  intros Hij Hj [Ha _] [Hb Hb']. pose proof (off_mono (split_incl s) (S i) j Hij).
  split; [apply row_first; lia|]. split; [apply row_last; lia|]. intros k Hk.
  pose proof (off_mono (split_incl s) (S i) k). pose proof (off_mono (split_incl s) (S k) j).
  apply row_mid; lia.
Qed.

(* which rows a span of m + 2 lines shows: R renders a row, M n k the fully covered line k under the number n *)
Lemma shown_rows (R : nat -> list piece) (M : nat -> nat -> list piece) (E T : list piece) i m :
  (forall k, i < k < S m + i -> R k = M (S k) k) ->
  flat_map R (fst (fst (shown i (S m + i)))) ++ (if snd (fst (shown i (S m + i))) then E else [])
    ++ flat_map R (snd (shown i (S m + i))) ++ T
  = R i ++ (if 3 <=? S (S m) then M (2 + i) (1 + i) else [])
        ++ (if S (S m) =? 5 then M (3 + i) (2 + i) else if 6 <=? S (S m) then E else [])
        ++ (if 4 <=? S (S m) then M (S m + i) (m + i) else []) ++ R (S m + i) ++ T.
Proof.
  intros H. unfold shown. rewrite Nat.add_sub, Nat.add_1_r.
  destruct m as [|[|[|[|m]]]]; cbn [Nat.leb Nat.eqb Nat.add Nat.sub seq flat_map fst snd app];
    rewrite ?app_nil_r, <- ?app_assoc.
  - reflexivity.
  - rewrite (H (S i)) by lia. reflexivity.
  - rewrite (H (S i)), (H (S (S i))) by lia. reflexivity.
  - rewrite (H (S i)), (H (S (S i))), (H (S (S (S i)))) by lia. reflexivity.
  - rewrite !Nat.add_1_r, (H (S i)), (H (S (S (S (S (m + i)))))) by lia. reflexivity.
Qed.

(* `.skip(i).take(n)`: its k-th element and its last *)
Lemma vidx_sel (L : list (list byte)) i n k : k < n -> k + i < length L ->
  vidx (firstn n (skipn i L)) k = ROk (nth (k + i) L []).
Proof.
  intros Hk Hl. unfold vidx. rewrite nth_error_firstn_lt, nth_error_skipn_add, Nat.add_comm by exact Hk.
  rewrite (nth_error_nth' L [] Hl). reflexivity.
Qed.

Lemma last_sel (L : list (list byte)) i n d : n + i < length L ->
  last (firstn (S n) (skipn i L)) d = nth (n + i) L [].
Proof.
  intros Hl. rewrite (firstn_S_nth _ d) by (rewrite skipn_length; lia). rewrite last_last.
  apply nth_error_nth. rewrite nth_error_skipn_add, Nat.add_comm. apply nth_error_nth', Hl.
Qed.

(* the three optional inner lines, for 2, 3, 4, 5 and >= 6 selected lines; the continuation K lets the
   equation rewrite inside render_located *)
Lemma inner_rows (sel : list (list byte)) (line : nat -> list byte) m
    (K : option (list char) -> option (list char) -> bool -> option (list char) -> fr (list piece)) :
  (forall k, k < S (S m) -> vidx sel k = ROk (line k)) ->
  fbind (if 3 <=? S (S m) then fbind (vidx sel 1) (fun l => ROk (Some (vis l))) else ROk None) (fun i0 =>
  fbind (if 6 <=? S (S m) then ROk (None, true)
         else if S (S m) =? 5 then fbind (vidx sel 2) (fun l => ROk (Some (vis l), false))
         else ROk (None, false)) (fun i1 =>
  fbind (if 4 <=? S (S m)
         then fbind (csub (S (S m)) 2) (fun k => fbind (vidx sel k) (fun l => ROk (Some (vis l))))
         else ROk None) (fun i3 =>
  K i0 (fst i1) (snd i1) i3)))
  = K (if 3 <=? S (S m) then Some (vis (line 1)) else None)
      (if S (S m) =? 5 then Some (vis (line 2)) else None)
      (6 <=? S (S m))
      (if 4 <=? S (S m) then Some (vis (line m)) else None).
Proof.
  intros H. unfold csub.
  destruct m as [|[|[|[|m]]]]; cbn [Nat.leb Nat.eqb Nat.sub fbind fst snd].
  - reflexivity.
  - rewrite (H 1) by lia. reflexivity.
  - rewrite (H 1), (H 2) by lia. reflexivity.
  - rewrite (H 1), (H 2), (H 3) by lia. reflexivity.
  - rewrite (H 1), (H (S (S (S (S m))))) by lia. reflexivity.
Qed.

Lemma render_located_spec w s a b i j :
  j < nlines s -> holds (split_incl s) i a -> holds (split_incl s) j b -> a <= b ->
  is_boundary s a = true -> is_boundary s b = true ->
  render_located w (split_incl s) i (a - off (split_incl s) i) j (b - off (split_incl s) j)
  = ROk (spec_span_at w s a b i j).
Proof.
  intros Hj Ha Hb Hab Ba Bb. pose proof (holds_le _ i j a b Ha Hb Hab) as Hij.
  destruct (line_boundary s i a ltac:(lia) (proj1 Ha) Ba) as [Ba' La].
  destruct (line_boundary s j b Hj (proj1 Hb) Bb) as [Bb' Lb].
  unfold render_located, spec_span_at. rewrite csub_ok, ceil_log10_ndigits by exact Hij. cbn [fbind]. cbv zeta.
  destruct (Nat.eqb_spec i j) as [<-|Hne].
  - unfold nlines in Hj. rewrite Nat.sub_diag, (skipn_nth _ [] _ i Hj). cbn [Nat.add firstn].
    fold (nth_line s i). rewrite (split_at_ok _ _ Bb' Lb). cbn [fbind fst snd].
    rewrite (split_at_firstn _ _ _ Ba') by lia. cbn [fbind fst snd].
    rewrite snippet_single_line_ok, row_of_eq. reflexivity.
  - assert (Hm : exists m, j = S m + i) by (exists (j - i - 1); lia). destruct Hm as [m ->].
    destruct (span_rows s a b i (S m + i) ltac:(lia) Hj Ha Hb) as (Ri & Rj & Rk).
    clear Ha Hb Hab Ba Bb Hne Hij. unfold nlines in Hj.
    rewrite Nat.add_sub, Nat.add_1_r.
    assert (Hlen : length (firstn (S (S m)) (skipn i (split_incl s))) = S (S m))
      by (rewrite firstn_length, skipn_length; lia).
    pose proof (fun k Hk => vidx_sel (split_incl s) i (S (S m)) k Hk) as Hv.
    pose proof (fun d => last_sel (split_incl s) i (S m) d Hj) as Hl.
    destruct (firstn (S (S m)) (skipn i (split_incl s))) as [|sline rest]; [discriminate|].
    assert (Hs0 : sline = nth_line s i).
    { specialize (Hv 0 ltac:(lia) ltac:(lia)). injection Hv as ->. reflexivity. }
    subst sline. rewrite Hl, Hlen. fold (nth_line s (S m + i)).
    rewrite (split_at_ok _ _ Ba' La), (split_at_ok _ _ Bb' Lb). cbn [fbind fst snd].
    rewrite (inner_rows _ (fun k => nth (k + i) (split_incl s) [])) by (intros k Hk; apply Hv; lia).
    rewrite snippet_multi_line_ok, !opt_row_if.
    rewrite (shown_rows (fun k => render_row (ndigits (S m + i + 1)) (row_of s a b k))
                        (fun n k => render_row (ndigits (S m + i + 1)) (mk_row n [] (vis (nth_line s k)) []))).
    + rewrite Ri, Rj. reflexivity.
    + intros k Hk. rewrite (Rk k Hk). reflexivity.
Qed.

Theorem display_span_spec w fixA s a b :
  lf_cuts s -> s <> [] -> fmt_valid_span s a b = true ->
  display_span w fixA s a b = ROk (spec_span_at w s a b (impl_line s a) (impl_line s b)).
Proof.
  intros Hcut Hs Hv. destruct (proj1 (slice_test_iff s a b) Hv) as (Hab & Hb & Ba & Bb).
  destruct (impl_line_holds s a Hs ltac:(lia)) as [Hi Ha].
  destruct (impl_line_holds s b Hs Hb) as [Hj Hjb].
  unfold display_span. rewrite (proj2 (Nat.eqb_neq (length s) 0)), andb_false_r
    by (destruct s; [congruence|discriminate]).
  rewrite (lines_full_lf_cuts s Hcut). cbn [fbind].
  rewrite (locate_span_at _ _ _ a b Hi Hj Ha Hjb Hab). cbn [fbind fst snd].
  apply render_located_spec; assumption.
Qed.

Theorem display_span_total w fixA s a b :
  lf_cuts s -> fmt_valid_span s a b = true -> s <> [] \/ fixA = true ->
  exists ps, display_span w fixA s a b = ROk ps.
Proof.
  intros Hcut Hv [Hs| ->]; [eexists; apply display_span_spec; assumption|].
  destruct s; [eexists; reflexivity|]. eexists. apply display_span_spec; [assumption|discriminate|assumption].
Qed.

Theorem display_span_rows w fixA s a b :
  lf_cuts s -> s <> [] -> fmt_valid_span s a b = true -> starts_at_line_start s a = false ->
  display_span w fixA s a b = ROk (spec_span w s a b).
Proof.
  intros Hcut Hs Hv Hx. destruct (proj1 (slice_test_iff s a b) Hv) as (Hab & Hb & _).
  rewrite display_span_spec by assumption.
  assert (Ec : cursor_line s a = impl_line s a) by (rewrite cursor_line_step, Hx by (assumption || lia); lia).
  unfold spec_span, first_line, last_line. destruct s; [congruence|]. rewrite Ec.
  destruct (Nat.ltb_spec a b) as [Hlt|Hge].
  - unfold impl_line at 2. rewrite (proj2 (Nat.eqb_neq b 0)) by lia. reflexivity.
  - replace b with a by lia. reflexivity.
Qed.

Theorem display_span_empty_fixed : forall w a b, display_span w true [] a b = ROk (spec_span w [] a b).
Proof. reflexivity. Qed.

Theorem linestart_off_by_one s a :
  a <= length s -> starts_at_line_start s a = true -> cursor_line s a = S (impl_line s a).
Proof.
  intros Ha Hx. rewrite cursor_line_step, Hx; [lia| |exact Ha].
  intros ->. destruct a; [discriminate Hx|cbn in Ha; lia].
Qed.

Lemma pos_loop_skip w fixC total i : forall L idx pos p,
  pos + off L i <= p -> fixC = false \/ pos + off L i < total ->
  pos_loop w fixC total L idx pos p = pos_loop w fixC total (skipn i L) (idx + i) (pos + off L i) p.
Proof.
  induction i as [|i IH]; intros L idx pos p Hp Hc.
  - cbn [skipn]. rewrite off_0, !Nat.add_0_r. reflexivity.
  - destruct L as [|l r]; [reflexivity|].
    rewrite off_cons, Nat.add_assoc in *. cbn [skipn pos_loop].
    rewrite (proj2 (Nat.ltb_ge p (pos + length l))) by lia.
    replace (fixC && (pos + length l =? total)) with false
      by (destruct Hc as [->|Hc]; [reflexivity|rewrite (proj2 (Nat.eqb_neq _ _)) by lia; symmetry; apply andb_false_r]).
    cbn [orb]. rewrite (IH r (S idx) (pos + length l) p Hp Hc), Nat.add_succ_comm. reflexivity.
Qed.

Theorem display_position_spec w fixC s p :
  lf_cuts s -> fmt_valid_pos s p = true ->
  display_position w fixC s p = ROk (if (p <? length s) || fixC then spec_pos w s p else []).
Proof.
  intros Hcut [Hp%Nat.leb_le Bp]%andb_prop.
  unfold display_position. rewrite (lines_full_lf_cuts s Hcut). cbn [fbind].
  destruct (list_eq_dec N.eq_dec s []) as [->|Hs]; [destruct (_ || _); reflexivity|].
  destruct (cursor_line_spec s p Hs Hp) as (Hi & Ho & Hlt).
  pose proof (off_le (split_incl s)) as Hle. rewrite concat_split_incl in Hle.
  destruct ((p <? length s) || fixC) eqn:Ec.
  - destruct (line_boundary s _ p Hi Ho Bp) as [Bp' Lp].
    pose proof (off_lt_S _ _ (split_incl_ok s) Hi) as Hlt'. pose proof (Hle (S (cursor_line s p))).
    rewrite (pos_loop_skip w fixC (length s) (cursor_line s p)) by (right + idtac; lia).
    unfold nlines in Hi. rewrite (skipn_nth _ [] _ _ Hi). cbn [Nat.add pos_loop].
    rewrite <- off_S by exact Hi.
    replace ((p <? _) || _) with true.
    2:{ destruct (Nat.ltb_spec p (length s)) as [Hp'|Hp'].
        - rewrite (proj2 (Nat.ltb_lt _ _) (Hlt Hp')). reflexivity.
        - cbn [orb] in Ec. rewrite Ec. replace (off _ _) with (length s) by lia.
          rewrite Nat.eqb_refl. symmetry. apply orb_true_r. }
    rewrite csub_ok, ceil_log10_ndigits by lia. cbn [fbind]. fold (nth_line s (cursor_line s p)).
    rewrite (split_at_ok _ _ Bp' Lp). cbn [fbind fst snd]. rewrite snippet_single_pos_ok.
    unfold spec_pos. destruct s; [elim Hs; reflexivity|]. unfold spec_pos_at.
    rewrite row_of_eq, Nat.sub_diag. reflexivity.
  - apply orb_false_iff in Ec. destruct Ec as [Ep ->]. apply Nat.ltb_ge in Ep.
    rewrite (pos_loop_skip w false (length s) (length (split_incl s))), skipn_all; [reflexivity| |left; reflexivity].
    rewrite off_all, concat_split_incl by reflexivity. exact Ep.
Qed.

Theorem display_position_rows w fixC s p :
  lf_cuts s -> fmt_valid_pos s p = true -> p < length s \/ fixC = true ->
  display_position w fixC s p = ROk (spec_pos w s p).
Proof.
  intros Hcut Hv Hc. rewrite display_position_spec by assumption.
  destruct Hc as [H| ->]; [apply Nat.ltb_lt in H; rewrite H|rewrite orb_true_r]; reflexivity.
Qed.

Theorem display_position_eof_nothing w s : lf_cuts s -> display_position w false s (length s) = ROk [].
Proof.
  intros Hcut. rewrite display_position_spec, Nat.ltb_irrefl; [reflexivity|exact Hcut|].
  unfold fmt_valid_pos. rewrite Nat.leb_refl. apply is_boundary_length.
Qed.

Theorem display_position_empty : forall w fixC p, display_position w fixC [] p = ROk (spec_pos w [] p).
Proof. intros w fixC p. reflexivity. Qed.

(* F4a: Span::new("", 0, 0) *)
Lemma display_span_empty_panics :
  exists (w : list char -> nat) (s : list byte) (a b : nat),
    fmt_valid_span s a b = true /\ display_span w false s a b = RPanic.
Proof. exists (@length char), [], 0, 0. split; vm_compute; reflexivity. Qed.

(* F4b: Span::new("a\nb", 2, 3) is rendered from line 1 *)
Lemma display_span_linestart_deviates :
  exists (w : list char -> nat) (s : list byte) (a b : nat),
    fmt_valid_span s a b = true /\ starts_at_line_start s a = true /\
    display_span w false s a b <> ROk (spec_span w s a b).
Proof.
  exists (@length char), [97; 10; 98]%N, 2, 3. split; [vm_compute; reflexivity|].
  split; [vm_compute; reflexivity|]. vm_compute. discriminate.
Qed.

(* F4c: Position::new("a", 1) renders nothing *)
Lemma display_position_eof_deviates :
  exists (w : list char -> nat) (s : list byte) (p : nat),
    fmt_valid_pos s p = true /\ p = length s /\
    display_position w false s p = ROk [] /\ spec_pos w s p <> [].
Proof.
  exists (@length char), [97]%N, 1. split; [vm_compute; reflexivity|].
  split; [reflexivity|]. split; vm_compute; [reflexivity|discriminate].
Qed.
