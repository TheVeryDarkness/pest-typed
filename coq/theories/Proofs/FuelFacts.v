(* A fuel-indexed run is a function [f : nat -> R] of the fuel it is given, with one result [fuel : R] that
   says the fuel ran out.  Two notions about such runs: [eventually Q], Q holds of every large enough fuel;
   and [upto fuel r r'], r' is r unless r ran out, which is how the run on more fuel relates to the run on less. *)
From Coq Require Import PeanoNat.

Definition eventually (Q : nat -> Prop) : Prop := exists n, forall n', n <= n' -> Q n'.

Lemma ev_all (Q : nat -> Prop) : (forall n, Q n) -> eventually Q.
Proof. intros H. exists 0. intros n _. apply H. Qed.

Lemma ev_imp (Q Q' : nat -> Prop) : eventually Q -> (forall n, Q n -> Q' n) -> eventually Q'.
Proof. intros [k Hk] H. exists k. intros n Hn. apply H, Hk, Hn. Qed.

Lemma ev_and (Q Q' : nat -> Prop) : eventually Q -> eventually Q' -> eventually (fun n => Q n /\ Q' n).
Proof.
  intros [k Hk] [k' Hk']. exists (Nat.max k k'). intros n Hn.
  split; [apply Hk, (Nat.max_lub_l _ _ _ Hn)|apply Hk', (Nat.max_lub_r _ _ _ Hn)].
Qed.

Lemma ev_S (Q : nat -> Prop) : eventually (fun n => Q (S n)) -> eventually Q.
Proof.
  intros [k Hk]. exists (S k). intros [|n] Hn; [destruct (Nat.nle_succ_0 _ Hn)|apply Hk, le_S_n, Hn].
Qed.

Lemma ev_ge k : eventually (fun n => k <= n).
Proof. exists k. intros n Hn. exact Hn. Qed.

Lemma ev_diag (Q : nat -> nat -> Prop) :
  (exists k, forall n l, k <= n -> k <= l -> Q n l) -> eventually (fun n => Q n n).
Proof. intros [k Hk]. exists k. intros n Hn. apply Hk; exact Hn. Qed.

Definition upto {R} (fuel r r' : R) : Prop := r <> fuel -> r' = r.

Lemma upto_refl {R} (fuel r : R) : upto fuel r r.
Proof. intros _. reflexivity. Qed.

Lemma upto_fuel {R} (fuel r : R) : upto fuel fuel r.
Proof. intros H. destruct H. reflexivity. Qed.

Section Run.
  Context {R : Type} (fuel : R) (f : nat -> R).
  Hypothesis Hf : forall n m, n <= m -> upto fuel (f n) (f m).

  Lemma run_stable n r : f n = r -> r <> fuel -> forall m, n <= m -> f m = r.
  Proof. intros <- Hr m Hle. exact (Hf n m Hle Hr). Qed.

  Lemma run_det n m : f n <> fuel -> f m <> fuel -> f n = f m.
  Proof.
    intros Hn Hm. destruct (Nat.le_ge_cases n m) as [H|H]; [symmetry|]; apply Hf; assumption.
  Qed.
End Run.
