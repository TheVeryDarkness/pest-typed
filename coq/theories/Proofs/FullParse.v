(* C04: the full entry points in terms of the partial ones. *)
From Coq Require Import List.
From PT Require Import Model.Base Model.Sem.
Import ListNotations.

Lemma eoi_attempt_ok E pos st st'' :
  eoi_attempt E pos st = Ok tt st'' <->
  i_at_end (e_inp E) pos = true /\
  st'' = ev (EExit (e_eoi E) pos true) (ev (EEnter (e_eoi E) pos) st).
Proof.
  unfold eoi_attempt. destruct (i_at_end (e_inp E) pos); split.
  - intros H. inversion H. split; reflexivity.
  - intros [_ ->]. reflexivity.
  - discriminate.
  - intros [H _]. discriminate.
Qed.

Lemma eoi_attempt_cases E pos st :
  (exists st', eoi_attempt E pos st = Ok tt st') \/ (exists st', eoi_attempt E pos st = Fail st').
Proof. unfold eoi_attempt. destruct (i_at_end (e_inp E) pos); [left|right]; eexists; reflexivity. Qed.

(* try_parse succeeds exactly when the prefix parse succeeds and, after the trailing skip (none for atomic /
   compound-atomic rules and the EOI rule), the cursor is at the end of the input; the tree is the prefix parse's *)
Theorem full_parse_iff E fuel r t st'' :
  try_parse E fuel r = Ok t st'' <->
  exists pos st,
    try_parse_partial E fuel r = Ok (pos, t) st /\
    if no_ignore E r
    then eoi_attempt E pos st = Ok tt st''
    else exists pos' t' st', top_skip_p E fuel pos st = Ok (pos', t') st' /\ eoi_attempt E pos' st' = Ok tt st''.
Proof.
  unfold try_parse. split.
  - destruct (try_parse_partial E fuel r) as [[pos t0] st| | |]; try discriminate.
    destruct (no_ignore E r).
    + destruct (eoi_attempt E pos st) as [[] s'|s'| |] eqn:He; try discriminate.
      intros H. inversion H; subst. exists pos, st. split; [reflexivity|assumption].
    + destruct (top_skip_p E fuel pos st) as [[pos' t'] st'| | |] eqn:Hs; try discriminate.
      destruct (eoi_attempt E pos' st') as [[] s'|s'| |] eqn:He; try discriminate.
      intros H. inversion H; subst. exists pos, st. split; [reflexivity|].
      exists pos', t', st'. split; assumption.
  - intros (pos & st & Hp & H). rewrite Hp. destruct (no_ignore E r).
    + rewrite H. reflexivity.
    + destruct H as (pos' & t' & st' & Hs & He). rewrite Hs, He. reflexivity.
Qed.

Theorem full_check_iff E fuel r st'' :
  try_check E fuel r = Ok tt st'' <->
  exists pos st,
    try_check_partial E fuel r = Ok pos st /\
    if no_ignore E r
    then eoi_attempt E pos st = Ok tt st''
    else exists pos' st', top_skip_c E fuel pos st = Ok pos' st' /\ eoi_attempt E pos' st' = Ok tt st''.
Proof.
  unfold try_check. split.
  - destruct (try_check_partial E fuel r) as [pos st| | |]; try discriminate.
    destruct (no_ignore E r).
    + intros H. exists pos, st. split; [reflexivity|assumption].
    + destruct (top_skip_c E fuel pos st) as [pos' st'| | |] eqn:Hs; try discriminate.
      intros H. exists pos, st. split; [reflexivity|]. exists pos', st'. split; assumption.
  - intros (pos & st & Hp & H). rewrite Hp. destruct (no_ignore E r).
    + exact H.
    + destruct H as (pos' & st' & Hs & He). rewrite Hs. exact He.
Qed.

(* never success with unread input: at success the cursor reached after the trailing skip is the end *)
Corollary no_success_with_unread E fuel r t st'' :
  try_parse E fuel r = Ok t st'' ->
  exists pos st, try_parse_partial E fuel r = Ok (pos, t) st /\
    if no_ignore E r then i_at_end (e_inp E) pos = true
    else exists pos' t' st', top_skip_p E fuel pos st = Ok (pos', t') st' /\ i_at_end (e_inp E) pos' = true.
Proof.
  intros H. apply full_parse_iff in H. destruct H as (pos & st & Hp & H). exists pos, st. split; [assumption|].
  destruct (no_ignore E r).
  - apply eoi_attempt_ok in H. tauto.
  - destruct H as (pos' & t' & st' & Hs & He). exists pos', t', st'. split; [assumption|].
    apply eoi_attempt_ok in He. tauto.
Qed.

(* never a rejection when the prefix parse (plus trailing skip) already ends at the end of the input *)
Corollary no_reject_at_end E fuel r pos t st :
  try_parse_partial E fuel r = Ok (pos, t) st ->
  (if no_ignore E r then i_at_end (e_inp E) pos = true
   else exists pos' t' st', top_skip_p E fuel pos st = Ok (pos', t') st' /\ i_at_end (e_inp E) pos' = true) ->
  exists st'', try_parse E fuel r = Ok t st''.
Proof.
  intros Hp H. destruct (no_ignore E r) eqn:Hn.
  - eexists. apply full_parse_iff. exists pos, st. split; [eassumption|]. rewrite Hn.
    apply eoi_attempt_ok. split; [assumption|reflexivity].
  - destruct H as (pos' & t' & st' & Hs & He). eexists. apply full_parse_iff. exists pos, st.
    split; [eassumption|]. rewrite Hn. exists pos', t', st'. split; [assumption|].
    apply eoi_attempt_ok. split; [assumption|reflexivity].
Qed.

(* a failing full parse whose prefix parse succeeded is a failing EOI attempt: the EOI rule is recorded *)
Corollary reject_records_eoi E fuel r pos t st st'' :
  try_parse_partial E fuel r = Ok (pos, t) st -> no_ignore E r = true ->
  try_parse E fuel r = Fail st'' ->
  i_at_end (e_inp E) pos = false /\
  st'' = ev (EExit (e_eoi E) pos false) (ev (EEnter (e_eoi E) pos) st).
Proof.
  intros Hp Hn. unfold try_parse. rewrite Hp, Hn. unfold eoi_attempt.
  destruct (i_at_end (e_inp E) pos); intros H; inversion H. split; reflexivity.
Qed.
