(* C04 in terms of pest's own semantics (Model/PegSpec.v).

   Proofs/FullParse.v states the full parse through the typed [Skipped] type of the model: after the prefix
   parse, unless [no_ignore] holds, the typed trailing skip [top_skip_p] runs, then the EOI attempt.  Here the
   same is stated against the PEG spec of the grammar the types were generated from:
     1. [no_ignore] (which variant `impl_parse!` picks) is decided by the KIND of the rule (atomic /
        compound-atomic, or the EOI rule);
     2. the typed trailing skip is pest's implicit skip [p_skip] in non-atomic state: same end offset, same
        stack, and neither ever fails;
     3. [try_parse] accepts exactly when pest matches a prefix with the rule and -- for an atomic / compound-atomic
        rule -- that prefix is the whole input, or -- otherwise -- pest's implicit skip run after it ends at the
        end of the input; the tree is the one [try_parse_partial] returns. *)
From Coq Require Import List ZArith Bool.
From PT Require Import Model.Base Model.Stack Model.Texpr Model.Sem Model.Aparse.
From PT Require Import Model.Ast Model.Translate Model.PegSpec Model.GenEnv Model.Wf.
From PT Require Import Proofs.FuelFacts Proofs.PegMono Proofs.PegSimBase Proofs.PegSimFwd Proofs.PegSimRev.
From PT Require Import Proofs.Refine Proofs.RefineCor.
From PT Require Import Proofs.BoundaryOps Proofs.Boundary Proofs.RefinePanic Proofs.Termination.
From PT Require Import Proofs.PegMain Proofs.PegMain2 Proofs.PegMain3 Proofs.FullParse Proofs.TrackerProofs.
Import ListNotations.

Lemma no_ignore_eoi eoi g I pred : no_ignore (env_of eoi g I pred) eoi = true.
Proof. unfold no_ignore. cbn [e_eoi env_of]. rewrite N.eqb_refl. reflexivity. Qed.

Lemma no_ignore_by_kind eoi g I pred r d :
  r <> eoi -> lookup_rule (g_rules g) r = Some d ->
  no_ignore (env_of eoi g I pred) r = kind_atomic (o_kind d).
Proof.
  intros Hne Hl. unfold no_ignore. cbn [e_eoi e_rules env_of]. apply N.eqb_neq in Hne. rewrite Hne, Hl.
  cbn [orb rdef_of_orule r_atom]. destruct (o_kind d); reflexivity.
Qed.

(* a name the grammar does not define: the generated type does not exist; the model's stand-in skips *)
Lemma no_ignore_undefined eoi g I pred r :
  r <> eoi -> lookup_rule (g_rules g) r = None -> no_ignore (env_of eoi g I pred) r = false.
Proof.
  intros Hne Hl. unfold no_ignore. cbn [e_eoi e_rules env_of]. apply N.eqb_neq in Hne. rewrite Hne, Hl.
  reflexivity.
Qed.

(* what `Parser::parse(Rule::r, input)` followed by "the rest is skippable up to the end" means in the spec:
   the prefix match of [peg_entry], then -- unless the rule is atomic / compound-atomic -- the implicit skip in
   non-atomic state, outside lookahead, from the offset and stack the prefix match left, then the end test *)
Definition peg_full (G : penv) (n : nat) (atomic : bool) (r : N) : pres :=
  match peg_entry G n r with
  | POk pos stk toks =>
      if atomic then
        if i_at_end (p_inp G) pos then POk pos stk toks else PFail
      else
        match p_skip G (p_call G (peg G n)) n ANon false pos stk with
        | POk pos' stk' toks' => if i_at_end (p_inp G) pos' then POk pos' stk' (toks ++ toks') else PFail
        | res => res
        end
  | res => res
  end.

Definition peg_full_accepts (G : penv) (n : nat) (atomic : bool) (pos : nat) (stk : list span) : Prop :=
  (atomic = true /\ pos = i_end (p_inp G)) \/
  (atomic = false /\
   exists stk' toks', p_skip G (p_call G (peg G n)) n ANon false pos stk = POk (i_end (p_inp G)) stk' toks').

Lemma i_at_end_iff I pos : i_at_end I pos = true <-> pos = i_end I.
Proof. unfold i_at_end. apply Nat.eqb_eq. Qed.

Lemma i_at_end_end I : i_at_end I (i_end I) = true.
Proof. apply Nat.eqb_refl. Qed.

Lemma peg_full_ok G n atomic r pos' stk' toks' :
  peg_full G n atomic r = POk pos' stk' toks' ->
  pos' = i_end (p_inp G) /\
  exists pos stk toks, peg_entry G n r = POk pos stk toks /\ peg_full_accepts G n atomic pos stk.
Proof.
  unfold peg_full, peg_full_accepts. intros H.
  destruct (peg_entry G n r) as [pos stk toks| | |]; try discriminate H. destruct atomic.
  - destruct (i_at_end (p_inp G) pos) eqn:He; [|discriminate H]. apply i_at_end_iff in He. injection H as <- _ _.
    split; [exact He|]. exists pos, stk, toks. split; [reflexivity|]. left. split; [reflexivity|exact He].
  - destruct (p_skip G (p_call G (peg G n)) n ANon false pos stk) as [p1 s1 t1| | |] eqn:Hs; try discriminate H.
    destruct (i_at_end (p_inp G) p1) eqn:He; [|discriminate H]. apply i_at_end_iff in He. injection H as <- _ _.
    split; [exact He|]. exists pos, stk, toks. split; [reflexivity|]. right. split; [reflexivity|]. subst p1. eauto.
Qed.

Lemma peg_full_accepted G n atomic r pos stk toks :
  peg_entry G n r = POk pos stk toks -> peg_full_accepts G n atomic pos stk ->
  exists stk' toks', peg_full G n atomic r = POk (i_end (p_inp G)) stk' toks'.
Proof. unfold peg_full. intros -> [[-> ->]|[-> (stk' & toks' & ->)]]; rewrite i_at_end_end; eauto. Qed.

Lemma peg_full_ends_iff G n atomic r :
  peg_full G n atomic r <> PFuel <->
  peg_entry G n r <> PFuel /\
  (atomic = false -> forall pos stk toks, peg_entry G n r = POk pos stk toks ->
     p_skip G (p_call G (peg G n)) n ANon false pos stk <> PFuel).
Proof.
  unfold peg_full. split.
  - intros H. destruct (peg_entry G n r) as [pos stk toks| | |]; try (split; [discriminate|intros; discriminate]).
    + split; [discriminate|]. intros -> p s t Hx. inversion Hx; subst. intros Hs. rewrite Hs in H. congruence.
    + congruence.
  - intros [H1 H2]. destruct (peg_entry G n r) as [pos stk toks| | |]; try discriminate; [|congruence].
    destruct atomic.
    + destruct (i_at_end (p_inp G) pos); discriminate.
    + specialize (H2 eq_refl pos stk toks eq_refl).
      destruct (p_skip G (p_call G (peg G n)) n ANon false pos stk) as [p1 s1 t1| | |]; try discriminate; [|congruence].
      destruct (i_at_end (p_inp G) p1); discriminate.
Qed.

Lemma a_skip_nofail E A lf pos stk : a_skip E A lf pos stk <> AFail.
Proof. unfold a_skip. destruct (e_skip E); [discriminate|apply a_arep_nofail]. Qed.

Section FullPeg.
  Variables (g : ogrammar) (eoi : N) (I : inp) (pred : N -> char -> bool).
  Local Notation E := (env_of eoi g I pred).
  Local Notation G := (penv_of eoi g I pred).
  Hypothesis Hws : ws_ok g = true.
  Hypothesis Heoi : eoi_fresh eoi g = true.
  Hypothesis HI : good_inp I.
  Hypothesis Hg : glits_ok g.

  Lemma env_good : env_ok E.
  Proof. apply env_of_ok; assumption. Qed.

  (* the typed skip against the reference interpreter's skip, same fuel: the total refinement on good inputs *)
  Lemma top_skip_rel m pos st gs : pre I pos st gs ->
    rel gs (top_skip_p E m pos st) (a_skip E (aparse E m) m pos (cache (stk st))).
  Proof.
    intros Hpre. apply rel'_rel.
    - unfold top_skip_p.
      apply (skip_rel' E (env_of_fixed eoi g I pred) env_good (tparse E m) (aparse E m)).
      + intros inh e p s gs' Hl Hp. apply tparse_boundaries; [exact env_good|exact Hl|exact Hp].
      + intros inh e p s gs' Hl Hp.
        apply tparse_aparse_rel'; [exact (env_of_fixed eoi g I pred)|exact env_good|exact Hl|exact Hp].
      + exact Hpre.
    - intros Hx. pose proof (top_skip_p_good E m pos st gs env_good Hpre) as H. rewrite Hx in H. exact H.
  Qed.

  (* the typed trailing skip from a good cursor and a good state: it ends with a value (it never fails, never
     panics), and pest's implicit skip -- non-atomic state, outside lookahead, from the same offset and the
     same stack content -- ends at the same offset with the same stack content, for all large enough fuels
     (PegSimRev.skip_rev at the top level) *)
  Theorem peg_skip_ends_if_top_skip_ends m pos st gs :
    pre I pos st gs -> top_skip_p E m pos st <> Fuel ->
    exists pos' t' st',
      top_skip_p E m pos st = Ok (pos', t') st' /\ pre I pos' st' gs /\ pos <= pos' /\
      exists n0, forall n l, n0 <= n -> n0 <= l -> exists toks,
        p_skip G (p_call G (peg G n)) l ANon false pos (cache (stk st)) = POk pos' (cache (stk st')) toks.
  Proof.
    intros Hpre Hm.
    pose proof (top_skip_rel m pos st gs Hpre) as Hr.
    pose proof (top_skip_p_good E m pos st gs env_good Hpre) as Hpo.
    destruct (top_skip_p E m pos st) as [[pos' t'] st'|st'| |] eqn:Ht.
    - unfold rel in Hr.
      destruct (a_skip E (aparse E m) m pos (cache (stk st))) as [[p1 t1] s1| | |] eqn:Ha; try contradiction.
      destruct Hr as (-> & -> & Hc & Hi). cbn [post] in Hpo. destruct Hpo as (Hle & Hgc & _ & Hgs & _).
      exists p1, t1, st'. split; [reflexivity|]. split; [exact (mk_pre I p1 st' gs Hgc Hgs Hi)|].
      split; [exact Hle|]. rewrite Hc.
      destruct (skip_rev g eoi I pred Hws Heoi m (peg_rev_all g eoi I pred Hws Heoi m) false pos (cache (stk st))
                         true ANon m m (conj (fun _ => eq_refl) (fun _ => eq_refl)) (le_n _)) as [n0 H0].
      exists n0. intros n l Hn Hl. specialize (H0 n l Hn Hl). unfold a_pre_skip in H0. rewrite Ha in H0. exact H0.
    - exfalso. exact (top_skip_never_fails E m pos st st' Ht).
    - destruct Hpo.
    - congruence.
  Qed.

  (* both runs end on the given fuels: both return a value, same offset, same stack content *)
  Theorem top_skip_is_peg_skip m n pos st gs :
    pre I pos st gs ->
    top_skip_p E m pos st <> Fuel ->
    p_skip G (p_call G (peg G n)) n ANon false pos (cache (stk st)) <> PFuel ->
    exists pos' t' st' toks,
      top_skip_p E m pos st = Ok (pos', t') st' /\
      p_skip G (p_call G (peg G n)) n ANon false pos (cache (stk st)) = POk pos' (cache (stk st')) toks /\
      pre I pos' st' gs.
  Proof.
    intros Hpre Hm Hn.
    destruct (peg_skip_ends_if_top_skip_ends m pos st gs Hpre Hm) as (pos' & t' & st' & Ht & Hpre' & _ & n0 & H0).
    destruct (H0 _ _ (Nat.le_max_r n n0) (Nat.le_max_r n n0)) as [toks Hs].
    rewrite (peg_skip_mono G n _ n _ ANon false pos (cache (stk st)) (Nat.le_max_l n n0) (Nat.le_max_l n n0) Hn) in Hs.
    exists pos', t', st', toks. split; [exact Ht|]. split; [exact Hs|exact Hpre'].
  Qed.

  Corollary top_skip_iff_peg_skip m n pos st gs :
    pre I pos st gs ->
    top_skip_p E m pos st <> Fuel ->
    p_skip G (p_call G (peg G n)) n ANon false pos (cache (stk st)) <> PFuel ->
    forall pos' stk',
    (exists t' st', top_skip_p E m pos st = Ok (pos', t') st' /\ cache (stk st') = stk') <->
    (exists toks, p_skip G (p_call G (peg G n)) n ANon false pos (cache (stk st)) = POk pos' stk' toks).
  Proof.
    intros Hpre Hm Hn pos' stk'.
    destruct (top_skip_is_peg_skip m n pos st gs Hpre Hm Hn) as (p1 & t1 & st1 & toks & Ht & Hs & _).
    rewrite Ht, Hs. split.
    - intros (t' & st' & Hx & Hc). inversion Hx; subst. eauto.
    - intros (toks' & Hx). inversion Hx; subst. eauto.
  Qed.

  (* the other direction of termination (PegSimFwd.skip_fwd at the top level): where pest's implicit skip ends,
     the typed trailing skip ends for all large enough fuels *)
  Theorem top_skip_ends_if_peg_skip_ends n l pos st gs :
    pre I pos st gs ->
    p_skip G (p_call G (peg G n)) l ANon false pos (cache (stk st)) <> PFuel ->
    exists m0, forall m, m0 <= m -> top_skip_p E m pos st <> Fuel.
  Proof.
    intros Hpre Hn.
    assert (Hc : true = true <-> ANon = ANon) by (split; reflexivity).
    destruct (skip_fwd g eoi I pred Hws Heoi (peg G n) (proj1 (peg_fwd g eoi I pred Hws Heoi n)) l false pos
                       (cache (stk st)) true ANon Hc) as [m0 H0].
    exists m0. intros m Hle Hx. specialize (H0 m m Hle Hle).
    pose proof (top_skip_rel m pos st gs Hpre) as Hr. rewrite Hx in Hr. unfold rel in Hr.
    unfold a_pre_skip in H0.
    destruct (a_skip E (aparse E m) m pos (cache (stk st))) as [[p1 t1] s1| | |]; try contradiction.
    destruct (p_skip G (p_call G (peg G n)) l ANon false pos (cache (stk st))) as [p s t| | |];
      cbn [fsim] in H0.
    - destruct H0 as [H0|[t0 H0]]; discriminate H0.
    - destruct H0 as [H0|H0]; discriminate H0.
    - discriminate H0.
    - congruence.
  Qed.

  Lemma try_parse_ends_partial m r : try_parse E m r <> Fuel -> try_parse_partial E m r <> Fuel.
  Proof. unfold try_parse. intros H Hx. rewrite Hx in H. congruence. Qed.

  Lemma try_parse_ends_skip m r pos t st :
    try_parse E m r <> Fuel -> try_parse_partial E m r = Ok (pos, t) st -> no_ignore E r = false ->
    top_skip_p E m pos st <> Fuel.
  Proof. unfold try_parse. intros H Hp Hn Hx. rewrite Hp, Hn, Hx in H. congruence. Qed.

  Lemma partial_pre m r pos t st : try_parse_partial E m r = Ok (pos, t) st -> pre I pos st [].
  Proof.
    intros Hp. pose proof (try_parse_partial_good E m r env_good) as H. rewrite Hp in H. cbn [post] in H.
    destruct H as (_ & Hgc & _ & Hgs & Hi). exact (mk_pre I pos st [] Hgc Hgs Hi).
  Qed.

  (* C01 for the prefix parse of a full run *)
  Lemma entry_agrees r n m : callable eoi g r = true -> peg_entry G n r <> PFuel -> try_parse E m r <> Fuel ->
    agrees_with_peg (peg_entry G n r) (try_parse_partial E m r).
  Proof.
    intros Hc Hn Hm. exact (typed_is_peg_wf g eoi I pred Hws Heoi HI Hg r Hc n m Hn (try_parse_ends_partial m r Hm)).
  Qed.

  Theorem full_parse_is_peg r d : callable eoi g r = true -> lookup_rule (g_rules g) r = Some d ->
    forall m n,
    try_parse E m r <> Fuel ->
    peg_full G n (kind_atomic (o_kind d)) r <> PFuel ->
    forall t,
    (exists st'', try_parse E m r = Ok t st'') <->
    (exists pos sk toks,
       peg_entry G n r = POk pos sk toks /\
       (exists st, try_parse_partial E m r = Ok (pos, t) st /\ cache (stk st) = sk) /\
       ((kind_atomic (o_kind d) = true /\ pos = i_end I) \/
        (kind_atomic (o_kind d) = false /\
         exists sk' toks', p_skip G (p_call G (peg G n)) n ANon false pos sk = POk (i_end I) sk' toks'))).
  Proof.
    intros Hc Hl m n Hm Hn t. apply peg_full_ends_iff in Hn. destruct Hn as [Hn Hs].
    pose proof (entry_agrees r n m Hc Hn Hm) as Ha.
    pose proof (no_ignore_by_kind eoi g I pred r d (callable_ne r Hc) Hl) as Hni.
    split.
    - intros (st'' & Ht). apply no_success_with_unread in Ht. destruct Ht as (pos & st & Hp & Hrest).
      rewrite Hp in Ha.
      destruct (peg_entry G n r) as [pos1 stk1 toks1| | |] eqn:Hpe; cbn [agrees_with_peg] in Ha; try contradiction;
        [|destruct Ha as (st1 & Hx); discriminate Hx].
      destruct Ha as (t1 & st1 & [= <- <- <-] & Hcache).
      exists pos, stk1, toks1. split; [reflexivity|]. split; [exists st; split; [exact Hp|exact Hcache]|].
      rewrite Hni in Hrest. destruct (kind_atomic (o_kind d)).
      + left. split; [reflexivity|]. apply i_at_end_iff, Hrest.
      + right. split; [reflexivity|]. destruct Hrest as (pos' & t' & st' & Hts & He). apply i_at_end_iff in He.
        cbn [e_inp env_of] in He. subst pos'. specialize (Hs eq_refl pos stk1 toks1 eq_refl). rewrite <- Hcache in Hs.
        destruct (top_skip_is_peg_skip m n pos st [] (partial_pre m r pos t st Hp) ltac:(congruence) Hs)
          as (p2 & t2 & st2 & toks2 & Hx2 & Hs2 & _).
        rewrite Hts in Hx2. injection Hx2 as <- <- <-. rewrite <- Hcache. eauto.
    - intros (pos & sk & toks & Hpe & (st & Hp & <-) & Hacc).
      apply (no_reject_at_end E m r pos t st Hp). rewrite Hni.
      destruct Hacc as [[-> ->]|[Hk (stk' & toks' & Hsk)]]; [apply i_at_end_end|]. rewrite Hk.
      rewrite Hk in Hni.
      destruct (top_skip_is_peg_skip m n pos st [] (partial_pre m r pos t st Hp) (try_parse_ends_skip m r pos t st Hm Hp Hni))
        as (p2 & t2 & st2 & toks2 & Hx2 & Hs2 & _); [rewrite Hsk; discriminate|].
      rewrite Hsk in Hs2. injection Hs2 as <- _ _. exists (i_end I), t2, st2. split; [exact Hx2|apply i_at_end_end].
  Qed.

  Lemma peg_full_no_panic r d : callable eoi g r = true -> lookup_rule (g_rules g) r = Some d ->
    forall m n, try_parse E m r <> Fuel -> peg_full G n (kind_atomic (o_kind d)) r <> PPanic.
  Proof.
    intros Hc Hl m n Hm Hx. unfold peg_full in Hx.
    assert (Hn : peg_entry G n r <> PFuel) by (intros H; rewrite H in Hx; discriminate Hx).
    pose proof (entry_agrees r n m Hc Hn Hm) as Ha.
    destruct (peg_entry G n r) as [pos sk toks| | |]; cbn [agrees_with_peg] in Ha; try contradiction; try discriminate Hx.
    destruct Ha as (t & st & Hp & <-).
    destruct (kind_atomic (o_kind d)) eqn:Hk; [destruct (i_at_end (p_inp G) pos); discriminate Hx|].
    assert (Hni : no_ignore E r = false) by (rewrite (no_ignore_by_kind eoi g I pred r d (callable_ne r Hc) Hl); exact Hk).
    destruct (top_skip_is_peg_skip m n pos st [] (partial_pre m r pos t st Hp) (try_parse_ends_skip m r pos t st Hm Hp Hni))
      as (p1 & t1 & st1 & toks1 & _ & Hs & _); [intros H; rewrite H in Hx; discriminate Hx|].
    rewrite Hs in Hx. destruct (i_at_end (p_inp G) p1); discriminate Hx.
  Qed.

  (* never success with unread input: at success pest's prefix match, followed -- unless the rule is atomic /
     compound-atomic -- by pest's implicit skip, has reached the end of the input *)
  Corollary no_success_with_unread_peg r d : callable eoi g r = true -> lookup_rule (g_rules g) r = Some d ->
    forall m n t st'',
    peg_full G n (kind_atomic (o_kind d)) r <> PFuel ->
    try_parse E m r = Ok t st'' ->
    exists pos sk toks,
      peg_entry G n r = POk pos sk toks /\
      (exists st, try_parse_partial E m r = Ok (pos, t) st /\ cache (stk st) = sk) /\
      peg_full_accepts G n (kind_atomic (o_kind d)) pos sk.
  Proof.
    intros Hc Hl m n t st'' Hn Ht.
    assert (Hm : try_parse E m r <> Fuel) by congruence.
    exact (proj1 (full_parse_is_peg r d Hc Hl m n Hm Hn t) (ex_intro _ st'' Ht)).
  Qed.

  (* never a rejection when pest's prefix match (plus implicit skip, unless atomic) already ends at the end *)
  Corollary no_reject_at_end_peg r d : callable eoi g r = true -> lookup_rule (g_rules g) r = Some d ->
    forall m n pos sk toks,
    try_parse E m r <> Fuel ->
    peg_entry G n r = POk pos sk toks ->
    peg_full_accepts G n (kind_atomic (o_kind d)) pos sk ->
    exists t st'', try_parse E m r = Ok t st'' /\ exists st, try_parse_partial E m r = Ok (pos, t) st.
  Proof.
    intros Hc Hl m n pos sk toks Hm Hpe Hacc.
    assert (Hn : peg_full G n (kind_atomic (o_kind d)) r <> PFuel).
    { apply peg_full_ends_iff. split; [rewrite Hpe; discriminate|].
      intros Hk p s t Hx. rewrite Hpe in Hx. inversion Hx; subst p s t.
      destruct Hacc as [[Hk' _]|[_ (sk' & toks' & Hs)]]; [congruence|]. cbn [p_inp penv_of] in Hs.
      rewrite Hs. discriminate. }
    assert (Hn' : peg_entry G n r <> PFuel) by (rewrite Hpe; discriminate).
    pose proof (entry_agrees r n m Hc Hn' Hm) as Ha.
    rewrite Hpe in Ha. cbn [agrees_with_peg] in Ha. destruct Ha as (t & st & Hp & Hcache).
    destruct (proj2 (full_parse_is_peg r d Hc Hl m n Hm Hn t)) as [st'' Ht].
    { exists pos, sk, toks. split; [exact Hpe|]. split; [exists st; split; assumption|exact Hacc]. }
    exists t, st''. split; [exact Ht|]. exists st. exact Hp.
  Qed.

  (* same verdict, and the tree of an accepted input is the prefix parse's *)
  Definition full_agrees_with_peg (p : pres) (tp : res tnode) (partial : res (nat * tnode)) : Prop :=
    match p with
    | POk pos _ _ =>
        pos = i_end I /\
        exists t st'', tp = Ok t st'' /\ exists pos0 st, partial = Ok (pos0, t) st
    | PFail => exists st'', tp = Fail st''
    | PPanic => False
    | PFuel => False
    end.

  Theorem full_parse_agrees r d : callable eoi g r = true -> lookup_rule (g_rules g) r = Some d ->
    forall m n,
    try_parse E m r <> Fuel ->
    peg_full G n (kind_atomic (o_kind d)) r <> PFuel ->
    full_agrees_with_peg (peg_full G n (kind_atomic (o_kind d)) r) (try_parse E m r) (try_parse_partial E m r).
  Proof.
    intros Hc Hl m n Hm Hn.
    pose proof (peg_full_no_panic r d Hc Hl m n Hm) as Hnp.
    pose proof (try_parse_good E m r env_good) as Hgood.
    destruct (peg_full G n (kind_atomic (o_kind d)) r) as [pos sk toks| | |] eqn:Hpf; try congruence;
      cbn [full_agrees_with_peg].
    - destruct (peg_full_ok _ _ _ _ _ _ _ Hpf) as (He & p0 & s0 & t0 & Hpe & Hacc). split; [exact He|].
      destruct (no_reject_at_end_peg r d Hc Hl m n p0 s0 t0 Hm Hpe Hacc) as (t & st'' & Ht & st & Hp). eauto 6.
    - destruct (try_parse E m r) as [t st''|st''| |] eqn:Ht; [|eauto|destruct Hgood|congruence].
      destruct (no_success_with_unread_peg r d Hc Hl m n t st'' ltac:(rewrite Hpf; discriminate) Ht)
        as (p1 & s1 & t1 & Hpe & _ & Hacc).
      destruct (peg_full_accepted _ _ _ _ _ _ _ Hpe Hacc) as (? & ? & Hx). congruence.
  Qed.

  Theorem peg_full_ends_if_typed_ends r d : callable eoi g r = true -> lookup_rule (g_rules g) r = Some d ->
    forall m, try_parse E m r <> Fuel ->
    eventually (fun n => peg_full G n (kind_atomic (o_kind d)) r <> PFuel).
  Proof.
    intros Hc Hl m Hm. pose proof (try_parse_ends_partial m r Hm) as Hmp.
    pose proof (peg_ends_if_typed_ends g eoi I pred Hws Heoi HI Hg r Hc m Hmp) as H1.
    (* the implicit skip behind the prefix the typed run accepted *)
    assert (H2 : eventually (fun n => kind_atomic (o_kind d) = false ->
                   forall pos t st, try_parse_partial E m r = Ok (pos, t) st ->
                   p_skip G (p_call G (peg G n)) n ANon false pos (cache (stk st)) <> PFuel)).
    { destruct (kind_atomic (o_kind d)) eqn:Hk; [apply ev_all; intros n [=]|].
      destruct (try_parse_partial E m r) as [[pos t] st|st| |] eqn:Hp;
        [|apply ev_all; intros n _ p t1 st1 [=]..].
      assert (Hni : no_ignore E r = false) by (rewrite (no_ignore_by_kind eoi g I pred r d (callable_ne r Hc) Hl); exact Hk).
      destruct (peg_skip_ends_if_top_skip_ends m pos st [] (partial_pre m r pos t st Hp) (try_parse_ends_skip m r pos t st Hm Hp Hni))
        as (pos' & t' & st' & _ & _ & _ & Hsk).
      refine (ev_imp _ _ (ev_diag _ Hsk) _). intros n [toks Hs] _ p t1 st1 [= <- <- <-]. rewrite Hs. discriminate. }
    refine (ev_imp _ _ (ev_and _ _ H1 H2) _). intros n [[Hf _] Hs]. apply peg_full_ends_iff. split; [exact Hf|].
    intros Hk pos sk toks Hpe.
    pose proof (typed_is_peg_wf g eoi I pred Hws Heoi HI Hg r Hc n m Hf Hmp) as Ha. rewrite Hpe in Ha.
    destruct Ha as (t & st & Hp & <-). exact (Hs Hk pos t st Hp).
  Qed.

  Theorem full_parse_agrees_rev r d : callable eoi g r = true -> lookup_rule (g_rules g) r = Some d ->
    forall m, try_parse E m r <> Fuel ->
    exists n0, forall n, n0 <= n ->
      full_agrees_with_peg (peg_full G n (kind_atomic (o_kind d)) r) (try_parse E m r) (try_parse_partial E m r).
  Proof.
    intros Hc Hl m Hm. destruct (peg_full_ends_if_typed_ends r d Hc Hl m Hm) as [n0 H0].
    exists n0. intros n Hle. exact (full_parse_agrees r d Hc Hl m n Hm (H0 n Hle)).
  Qed.
End FullPeg.

(* total form: a grammar that passes the certificate checker (C11) *)
Theorem full_parse_agrees_total g eoi I pred rules c :
  ws_ok g = true -> eoi_fresh eoi g = true -> good_inp I -> glits_ok g ->
  wf_cert rules (e_rules (env_of eoi g I pred)) (e_skip (env_of eoi g I pred)) c = true ->
  forall r d, callable eoi g r = true -> lookup_rule (g_rules g) r = Some d -> In r rules ->
  exists n0 m0, forall n m, n0 <= n -> m0 <= m ->
    full_agrees_with_peg I (peg_full (penv_of eoi g I pred) n (kind_atomic (o_kind d)) r)
                         (try_parse (env_of eoi g I pred) m r) (try_parse_partial (env_of eoi g I pred) m r).
Proof.
  intros Hws Heoi HI Hg Hwf r d Hc Hl Hin.
  pose proof (env_good g eoi I pred HI Hg) as HE'.
  set (m0 := fuel_bound rules (e_rules (env_of eoi g I pred)) (e_skip (env_of eoi g I pred)) c (TRule r SkOn)
                        (i_end (e_inp (env_of eoi g I pred)) - i_start (e_inp (env_of eoi g I pred)))).
  assert (Hm : forall m, m0 <= m -> try_parse (env_of eoi g I pred) m r <> Fuel).
  { intros m Hle. exact (proj1 (proj2 (proj2 (entry_points_terminate (env_of eoi g I pred) rules c HE' Hwf r m Hin Hle)))). }
  destruct (peg_full_ends_if_typed_ends g eoi I pred Hws Heoi HI Hg r d Hc Hl m0 (Hm m0 (le_n _))) as [n0 H0].
  exists n0, m0. intros n m Hn Hm'.
  exact (full_parse_agrees g eoi I pred Hws Heoi HI Hg r d Hc Hl m n (Hm m Hm') (H0 n Hn)).
Qed.

(* The grammar of PegMain.v:  r1 = { "a" ~ (r2 | "c")* ~ &"b" ~ "b" }   r2 = @{ "x" ~ "y" }
   WHITESPACE = _{ " " }.   Trailing blanks are accepted behind the normal rule 1 (pest's prefix match ends
   at 7, its implicit skip at 9 = the end) and rejected behind the atomic rule 2 (no skip is made). *)
Definition ex_in3 : list byte := [97; 32; 120; 121; 32; 32; 98; 32; 32]%N.      (* "a xy  b  " *)
Definition ex_in4 : list byte := [120; 121; 32; 32]%N.                          (* "xy  " *)
Definition ex_in5 : list byte := [120; 121]%N.                                  (* "xy" *)
Definition ex_in6 : list byte := [97; 32; 120; 121; 32; 32; 98; 32; 120]%N.     (* "a xy  b x" *)
Definition ex_nopred : N -> char -> bool := fun _ _ => false.
Definition is_ok {A} (r : res A) : bool := match r with Ok _ _ => true | _ => false end.

Example no_ignore_example :
  no_ignore (env_of 0 ex_g (inp_of_str ex_in3) ex_nopred) 1 = false /\
  no_ignore (env_of 0 ex_g (inp_of_str ex_in3) ex_nopred) 2 = true /\
  no_ignore (env_of 0 ex_g (inp_of_str ex_in3) ex_nopred) 0 = true.
Proof. vm_compute. repeat split. Qed.

Example full_parse_peg_example :
  (* rule 1, trailing blanks: accepted; pest: prefix up to 7, implicit skip up to 9 *)
  is_ok (try_parse (env_of 0 ex_g (inp_of_str ex_in3) ex_nopred) 40 1) = true /\
  (exists toks, peg_entry (penv_of 0 ex_g (inp_of_str ex_in3) ex_nopred) 40 1 = POk 7 [] toks) /\
  (exists toks, p_skip (penv_of 0 ex_g (inp_of_str ex_in3) ex_nopred)
                       (p_call (penv_of 0 ex_g (inp_of_str ex_in3) ex_nopred)
                               (peg (penv_of 0 ex_g (inp_of_str ex_in3) ex_nopred) 40)) 40 ANon false 7 []
                = POk 9 [] toks) /\
  (exists toks, peg_full (penv_of 0 ex_g (inp_of_str ex_in3) ex_nopred) 40 false 1 = POk 9 [] toks) /\
  (* rule 1, something unskippable behind: rejected on both sides *)
  is_fail (try_parse (env_of 0 ex_g (inp_of_str ex_in6) ex_nopred) 40 1) = true /\
  peg_full (penv_of 0 ex_g (inp_of_str ex_in6) ex_nopred) 40 false 1 = PFail /\
  (* rule 2 (atomic), trailing blanks: rejected although the prefix matches up to 2 *)
  is_fail (try_parse (env_of 0 ex_g (inp_of_str ex_in4) ex_nopred) 40 2) = true /\
  (exists toks, peg_entry (penv_of 0 ex_g (inp_of_str ex_in4) ex_nopred) 40 2 = POk 2 [] toks) /\
  peg_full (penv_of 0 ex_g (inp_of_str ex_in4) ex_nopred) 40 true 2 = PFail /\
  (* rule 2 on exactly "xy": accepted *)
  is_ok (try_parse (env_of 0 ex_g (inp_of_str ex_in5) ex_nopred) 40 2) = true /\
  (exists toks, peg_full (penv_of 0 ex_g (inp_of_str ex_in5) ex_nopred) 40 true 2 = POk 2 [] toks).
Proof. vm_compute. repeat split; eauto. Qed.

(* the premises of [full_parse_agrees] are satisfiable: the two inputs with trailing blanks *)
Lemma ex_in3_good : good_inp (inp_of_str ex_in3).
Proof.
  change ex_in3 with (encode [97; 32; 120; 121; 32; 32; 98; 32; 32]%N). apply good_inp_str. repeat constructor.
Qed.

Lemma ex_in4_good : good_inp (inp_of_str ex_in4).
Proof. change ex_in4 with (encode [120; 121; 32; 32]%N). apply good_inp_str. repeat constructor. Qed.

Lemma full_parse_agrees_premises :
  ws_ok ex_g = true /\ eoi_fresh 0 ex_g = true /\ glits_ok ex_g /\
  callable 0 ex_g 1 = true /\ lookup_rule (g_rules ex_g) 1 = Some (mk_orule 1 KNormal
        (OSeq (OStr [97%N]) (OSeq (ORep (OChoice (OIdent (IdRule 2)) (OStr [99%N])))
                                  (OSeq (OPosPred (OStr [98%N])) (OStr [98%N]))))) /\
  callable 0 ex_g 2 = true /\
  lookup_rule (g_rules ex_g) 2 = Some (mk_orule 2 KAtomic (OSeq (OStr [120%N]) (OStr [121%N]))) /\
  try_parse (env_of 0 ex_g (inp_of_str ex_in3) ex_nopred) 40 1 <> Fuel /\
  peg_full (penv_of 0 ex_g (inp_of_str ex_in3) ex_nopred) 40 false 1 <> PFuel /\
  try_parse (env_of 0 ex_g (inp_of_str ex_in4) ex_nopred) 40 2 <> Fuel /\
  peg_full (penv_of 0 ex_g (inp_of_str ex_in4) ex_nopred) 40 true 2 <> PFuel.
Proof.
  split; [reflexivity|]. split; [reflexivity|]. split; [exact ex_g_lits|].
  split; [reflexivity|]. split; [reflexivity|]. split; [reflexivity|]. split; [reflexivity|].
  repeat split; vm_compute; discriminate.
Qed.

Corollary full_parse_agrees_instance :
  full_agrees_with_peg (inp_of_str ex_in3)
    (peg_full (penv_of 0 ex_g (inp_of_str ex_in3) ex_nopred) 40 false 1)
    (try_parse (env_of 0 ex_g (inp_of_str ex_in3) ex_nopred) 40 1)
    (try_parse_partial (env_of 0 ex_g (inp_of_str ex_in3) ex_nopred) 40 1) /\
  full_agrees_with_peg (inp_of_str ex_in4)
    (peg_full (penv_of 0 ex_g (inp_of_str ex_in4) ex_nopred) 40 true 2)
    (try_parse (env_of 0 ex_g (inp_of_str ex_in4) ex_nopred) 40 2)
    (try_parse_partial (env_of 0 ex_g (inp_of_str ex_in4) ex_nopred) 40 2).
Proof.
  destruct full_parse_agrees_premises as (H1 & H2 & H3 & H4 & H5 & H6 & H7 & H8 & H9 & H10 & H11).
  split.
  - exact (full_parse_agrees ex_g 0 (inp_of_str ex_in3) ex_nopred H1 H2 ex_in3_good H3 1%N _ H4 H5 40 40 H8 H9).
  - exact (full_parse_agrees ex_g 0 (inp_of_str ex_in4) ex_nopred H1 H2 ex_in4_good H3 2%N _ H6 H7 40 40 H10 H11).
Qed.

Print Assumptions no_ignore_by_kind.
Print Assumptions top_skip_is_peg_skip.
Print Assumptions peg_skip_ends_if_top_skip_ends.
Print Assumptions top_skip_ends_if_peg_skip_ends.
Print Assumptions top_skip_iff_peg_skip.
Print Assumptions full_parse_is_peg.
Print Assumptions full_parse_agrees.
Print Assumptions no_success_with_unread_peg.
Print Assumptions no_reject_at_end_peg.
Print Assumptions full_parse_agrees_rev.
Print Assumptions full_parse_agrees_total.
Print Assumptions full_parse_peg_example.
Print Assumptions full_parse_agrees_instance.
