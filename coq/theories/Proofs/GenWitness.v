(* Witnesses of the known finding WsNonAtomic (F2 / F8) on the faithful model, and structural facts about
   the generator model used by C07. *)
From Coq Require Import List NArith.
From PT Require Import Model.Base Model.Texpr Model.Sem Model.Tok Model.Tokens.
From PT Require Import Model.Ast Model.Translate Model.PegSpec Model.GenEnv.
Import ListNotations.

(* every sequence and repetition in [t] carries the skip token [k] *)
Fixpoint skips_are (k : sk) (t : texpr) {struct t} : Prop :=
  match t with
  | TSeq k' es => k' = k /\ (fix all (l : list texpr) : Prop := match l with [] => True | x :: r => skips_are k x /\ all r end) es
  | TChoice es => (fix all (l : list texpr) : Prop := match l with [] => True | x :: r => skips_are k x /\ all r end) es
  | TRep k' _ _ e => k' = k /\ skips_are k e
  | TOpt e | TPos e | TNeg e | TPush e | TAtomicRep e | TArr _ e => skips_are k e
  | TPair a b => skips_are k a /\ skips_are k b
  | _ => True           (* leaves; TRule: checked separately (built-in aliases expand to skip-free nodes) *)
  end.

(* trap: the disjunct True makes this hold of every [k] and [t]; what a reference carries is [tr_ident_rule] *)
Definition rule_refs_carry (k : sk) (t : texpr) : Prop :=
  forall r k', t = TRule r k' -> k' = k \/ True.

Lemma builtin_skip_free eoi k b : skips_are k (builtin_texpr eoi b).
Proof. destruct b; cbn; tauto. Qed.

Lemma tr_skips eoi k e : skips_are k (tr eoi k e).
Proof.
  induction e; cbn [tr skips_are]; auto.
  - destruct i; cbn; auto. apply builtin_skip_free.
  - (* OSeq: [IHe2] speaks of the rest of the spine if e2 is a further Seq, of its one element otherwise *)
    split; [reflexivity|]. split; [exact IHe1|].
    destruct e2; try (split; [exact IHe2|exact I]). exact (proj2 IHe2).
  - split; [exact IHe1|].
    destruct e2; try (split; [exact IHe2|exact I]). exact IHe2.
Qed.

(* a reference to a defined rule passes the defining rule's skip token on *)
Lemma tr_ident_rule eoi k r : tr eoi k (OIdent (IdRule r)) = TRule r k.
Proof. reflexivity. Qed.

(* what a rule body resolves its skip flag to, by the kind of the rule it is defined in *)
Lemma resolve_by_kind kind inh :
  resolve (skip_of_kind kind) inh =
  match kind with
  | KAtomic | KCompound => false
  | KNonAtomic => true
  | KNormal | KSilent => inh
  end.
Proof. destruct kind; reflexivity. Qed.

(* inside generics::Skipped, WHITESPACE and COMMENT run with SKIP = 0 *)
Lemma skip_rules_called_atomically ws cm e :
  skip_of ws cm = SkipRep e ->
  (exists w, e = TRule w SkOff) \/ (exists w c, e = TChoice [TRule w SkOff; TRule c SkOff]).
Proof.
  destruct ws as [w|], cm as [c|]; cbn; intros H; inversion H; subst; eauto.
Qed.

(* ws_ref = { WHITESPACE }   WHITESPACE = { "a" ~ "b" }   on "aabb" *)
Definition wg : ogrammar :=
  mk_ogrammar
    [ mk_orule 1 KNormal (OIdent (IdRule 2));
      mk_orule 2 KNormal (OSeq (OStr [97%N]) (OStr [98%N])) ]
    (Some 2%N) None.

Definition w_input : list byte := [97; 97; 98; 98]%N.
Definition no_pred : N -> char -> bool := fun _ _ => false.

Lemma ws_not_forced_atomic :
  (match tparse (env_of 0 wg (inp_of_str w_input) no_pred) 30 true (TRule 1 SkOn) 0 st0 with
   | Ok (p, _) _ => p = 4 | _ => False end) /\
  peg_entry (penv_of 0 wg (inp_of_str w_input) no_pred) 30 1 = PFail /\
  ws_ok wg = false.
Proof. vm_compute. repeat split. Qed.

(* WHITESPACE = { inner }  inner = { " " }  r = { "a" ~ "b" }  on "a b": the typed tree keeps `inner` *)
Definition wg2 : ogrammar :=
  mk_ogrammar
    [ mk_orule 1 KNormal (OIdent (IdRule 2));
      mk_orule 2 KNormal (OStr [32%N]);
      mk_orule 3 KNormal (OSeq (OStr [97%N]) (OStr [98%N])) ]
    (Some 1%N) None.

Definition w_input2 : list byte := [97; 32; 98]%N.

Lemma ws_inner_tokens_kept :
  (match tparse (env_of 0 wg2 (inp_of_str w_input2) no_pred) 30 true (TRule 3 SkOn) 0 st0 with
   | Ok (_, t) _ => tokens (env_of 0 wg2 (inp_of_str w_input2) no_pred) t =
                    [Tok 3 0 3 [Tok 1 1 2 [Tok 2 1 2 []]]]
   | _ => False end) /\
  peg_entry (penv_of 0 wg2 (inp_of_str w_input2) no_pred) 30 3 = POk 3 [] [Tok 3 0 3 [Tok 1 1 2 []]].
Proof. vm_compute. split; reflexivity. Qed.
