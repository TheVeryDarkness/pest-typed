(* C16, second part: (1) every tree the parsers return has the shape of the expression it was parsed with (a property of
   the value of a successful run, carried through both interpreters by okp_bind / aokp_bind), so the getter value
   theorems of Proofs/GetterProofs.v apply to what the parser returns; (2) the TYPE of every emitted getter is the
   declarative `spec_type`, never contains Option<Option<_>>, and the value the accessor computes has that type;
   (3) a concrete, non-vacuous example. *)
From Coq Require Import List NArith Arith Bool.
From PT Require Import Model.Base Model.Stack Model.Texpr Model.Sem Model.Aparse.
From PT Require Import Model.Ast Model.Translate Model.GenEnv Model.Getter.
From PT Require Import Proofs.ListFacts Proofs.GenWitness Proofs.GetterProofs Proofs.ResFacts.
Import ListNotations.

Lemma has_shape_seq_intro k es items :
  Forall2 (fun e it => has_shape e (snd it)) es items -> has_shape (TSeq k es) (NSeq items).
Proof.
  intros H. cbn [has_shape]. induction H as [|e it es its He _ IH]; [exact I|split; assumption].
Qed.

Lemma has_shape_choice_intro es : forall i c e,
  nth_error es i = Some e -> has_shape e c -> has_shape (TChoice es) (NChoice (length es) i c).
Proof.
  intros i c e Hn Hs. cbn [has_shape]. split; [reflexivity|].
  revert i Hn. induction es as [|e1 r IH]; intros i Hn; [destruct i; discriminate Hn|].
  destruct i as [|i]; cbn [nth_error] in Hn.
  - inversion Hn; subst. exact Hs.
  - apply IH. exact Hn.
Qed.

Lemma has_shape_rep_intro k mn mx e b items :
  Forall (fun it => has_shape e (snd it)) items -> has_shape (TRep k mn mx e) (NRep b items).
Proof. intros H. cbn [has_shape]. induction H; [exact I|split; assumption]. Qed.

(* the elements of an AtomicRepeat and of an array *)
Lemma shape_all e l :
  Forall (has_shape e) l ->
  (fix all (ts : list tnode) : Prop := match ts with [] => True | t1 :: ts' => has_shape e t1 /\ all ts' end) l.
Proof. intros H. induction H; [exact I|split; assumption]. Qed.

(* [okp] (ResFacts.v) on the reference interpreter *)
Definition aokp {A} (G : A -> Prop) (r : ares A) : Prop := match r with AOk a _ => G a | _ => True end.

Lemma aokp_true {A} (r : ares A) : aokp (fun _ => True) r.
Proof. destruct r; exact I. Qed.

Lemma aokp_bind {A B} (G : A -> Prop) (H : B -> Prop) r (k : A -> list span -> ares B) f :
  aokp G r -> (forall a stk, G a -> aokp H (k a stk)) -> aokp H f ->
  aokp H (match r with AOk a stk => k a stk | AFail => f | APanic => APanic | AFuel => AFuel end).
Proof. destruct r; cbn [aokp]; auto. Qed.

Lemma aokp_lift {A B} (G : B -> Prop) (m : mres A) k : (forall a, aokp G (k a)) -> aokp G (alift m k).
Proof. intros H. destruct m; [apply H|exact I]. Qed.

(* descends through the lifts and case distinctions of a leaf of [step_p] / [a_step] to the nodes it returns *)
Ltac leaf :=
  repeat lazymatch goal with
         | |- okp _ (lift _ _) => apply okp_lift; intros ? _
         | |- aokp _ (alift _ _) => apply aokp_lift; intro
         | |- _ _ (match ?x with _ => _ end) => destruct x
         end.

Definition shp (e : texpr) (pt : nat * tnode) : Prop := has_shape e (snd pt).

(* what a rule leaves behind: content of the shape of its body, unless the rule emits its span only *)
Definition rule_node_ok (E : env) (r : N) (pt : nat * tnode) : Prop :=
  exists c sp, snd pt = NRule r c sp /\
    match c with Some t => has_shape (r_body (e_rules E r)) t | None => r_emis (e_rules E r) = EmSpan end.

Section Shape.
  Variable E : env.
  Variable P : bool -> texpr -> nat -> state -> res (nat * tnode).
  Variable C : bool -> texpr -> nat -> state -> res nat.
  Variable lf : nat.
  Hypothesis HP : forall inh e pos st, okp (shp e) (P inh e pos st).

  Lemma arep_shape : forall n inh e pos st acc,
    Forall (has_shape e) acc -> okp (shp (TAtomicRep e)) (arep_p E P n inh e pos st acc).
  Proof.
    induction n as [|n IH]; intros inh e pos st acc Hacc; [exact I|]. cbn [arep_p].
    apply okp_bind with (G := shp e); [apply ron_okp; intros; apply notrack_okp, HP| |].
    - intros [p t] st' Ht. apply IH. constructor; assumption.
    - intros st'. apply shape_all, Forall_rev, Hacc.
  Qed.

  Lemma seq_shape k b inh : forall es first pos st acc done,
    Forall2 (fun e it => has_shape e (snd it)) done (rev acc) ->
    okp (shp (TSeq k (done ++ es))) (seq_p E P lf b inh es first pos st acc).
  Proof.
    induction es as [|e es IH]; intros first pos st acc done Hacc; cbn [seq_p].
    - rewrite app_nil_r. apply has_shape_seq_intro, Hacc.
    - apply okp_bind with (G := fun _ => True); [apply okp_true| |intros; exact I]. intros [p1 skd] st1 _.
      apply okp_bind with (G := shp e); [apply HP| |intros; exact I]. intros [p2 t] st2 Ht.
      change (e :: es) with ([e] ++ es). rewrite app_assoc. apply IH.
      cbn [rev]. apply Forall2_app; [exact Hacc|]. repeat constructor. exact Ht.
  Qed.

  Lemma choice_shape all inh : forall es i pos st,
    skipn i all = es -> okp (shp (TChoice all)) (choice_p E P inh (length all) es i pos st).
  Proof.
    induction es as [|e es IH]; intros i pos st Hs; [exact I|]. cbn [choice_p].
    rewrite skipn_nth_error in Hs. destruct (nth_error all i) eqn:En; [|discriminate Hs]. injection Hs as -> Hs.
    apply okp_bind with (G := shp e); [apply ron_okp; intros; apply HP| |].
    - intros [p t] st' Ht. exact (has_shape_choice_intro all i t e En Ht).
    - intros st'. apply IH, Hs.
  Qed.

  Lemma unit_shape b inh e i pos st :
    okp (fun pi => has_shape e (snd (snd pi))) (unit_p E P lf b inh e i pos st).
  Proof.
    apply okp_bind with (G := fun _ => True); [apply okp_true| |intros; exact I]. intros [p1 skd] st1 _.
    apply okp_bind with (G := shp e); [apply HP| |intros; exact I]. intros [p2 t] st2 Ht. exact Ht.
  Qed.

  Lemma rep_shape k b inh mn mx e : forall n i pos st acc,
    Forall (fun it => has_shape e (snd it)) acc ->
    okp (shp (TRep k mn mx e)) (rep_p E P lf n b inh mn mx e i pos st acc).
  Proof.
    assert (Hout : forall (pos : nat) acc, Forall (fun it => has_shape e (snd it)) acc ->
                     shp (TRep k mn mx e) (pos, NRep (bounded mx) (rev acc))).
    { intros. apply has_shape_rep_intro, Forall_rev. assumption. }
    induction n as [|n IH]; intros i pos st acc Hacc; cbn [rep_p]; destruct (below i mx);
      try (destruct (_ && _); [exact I|apply Hout, Hacc]); [exact I|].
    apply okp_bind with (G := fun pi => has_shape e (snd (snd pi))); [apply ron_okp; intros; apply unit_shape| |].
    - intros [p it] st' Hit. apply IH. constructor; assumption.
    - intros st'. destruct (i <? mn); [exact I|apply Hout, Hacc].
  Qed.

  Lemma arr_shape inh e m : forall n pos st acc,
    Forall (has_shape e) acc -> okp (shp (TArr m e)) (arr_p P n inh e pos st acc).
  Proof.
    induction n as [|n IH]; intros pos st acc Hacc; cbn [arr_p]; [apply shape_all, Forall_rev, Hacc|].
    apply okp_bind with (G := shp e); [apply HP| |intros; exact I].
    intros [p t] st' Ht. apply IH. constructor; assumption.
  Qed.

  Lemma newline_shape : forall alts pos st, okp (shp TNewline) (newline_p E alts pos st).
  Proof.
    induction alts as [|[bs k] alts IH]; intros pos st; [exact I|]. cbn [newline_p].
    apply okp_lift. intros [p'|] _; [exact I|apply IH].
  Qed.

  Lemma rule_shape inh r arg pos st : okp (rule_node_ok E r) (step_p E P C lf inh (TRule r arg) pos st).
  Proof.
    cbn [step_p]. unfold rule_node_ok. destruct (r_emis (e_rules E r)).
    - apply okp_bind with (G := fun _ => True); [apply okp_true| |intros; exact I].
      intros p st' _. apply okp_lift. intros sp _. exists None, (Some sp). split; reflexivity.
    - apply okp_bind with (G := shp (r_body (e_rules E r))); [apply HP| |intros; exact I].
      intros [p t] st' Ht. exists (Some t), None. split; [reflexivity|exact Ht].
    - apply okp_bind with (G := shp (r_body (e_rules E r))); [apply HP| |intros; exact I].
      intros [p t] st' Ht. apply okp_lift. intros sp _. exists (Some t), (Some sp). split; [reflexivity|exact Ht].
  Qed.

  Lemma step_shape inh e pos st : okp (shp e) (step_p E P C lf inh e pos st).
  Proof.
    destruct e; cbn [step_p]; unfold leaf_match.
    (* the leaves return a node of their own kind, a rule a node with its own name *)
    1-6, 8-10, 17, 19-24, 27-29: leaf; constructor.
    - apply newline_shape.
    - apply (seq_shape k _ _ es true pos st [] []). constructor.
    - apply choice_shape. reflexivity.
    - apply okp_bind with (G := shp e); [apply ron_okp; intros; apply HP|intros [p t] st' Ht; exact Ht|intros; exact I].
    - apply rep_shape. constructor.
    - apply arep_shape. constructor.
    - apply okp_bind with (G := shp e); [apply HP|intros [p t] st' Ht|intros st']; apply okp_lift; intros s _; [exact Ht|exact I].
    - apply okp_bind with (G := shp e); [apply HP| |intros; exact I]. intros [p t] st' Ht. apply okp_lift. intros. exact Ht.
    - apply arr_shape. constructor.
    - apply okp_bind with (G := shp e1); [apply HP| |intros; exact I]. intros [p1 t1] st1 H1.
      apply okp_bind with (G := shp e2); [apply HP| |intros; exact I]. intros [p2 t2] st2 H2. split; assumption.
  Qed.
End Shape.

Lemma tparse_shapes E : forall fuel inh e pos st, okp (shp e) (tparse E fuel inh e pos st).
Proof. induction fuel as [|n IH]; intros; [exact I|]. apply step_shape, IH. Qed.

Theorem tparse_has_shape E fuel inh e pos st p t st' :
  tparse E fuel inh e pos st = Ok (p, t) st' -> has_shape e t.
Proof. intros H. pose proof (tparse_shapes E fuel inh e pos st) as K. rewrite H in K. exact K. Qed.

Lemma tparse_rule_node E fuel inh r arg pos st : okp (rule_node_ok E r) (tparse E fuel inh (TRule r arg) pos st).
Proof. destruct fuel as [|n]; [exact I|]. apply rule_shape, tparse_shapes. Qed.

Section AShape.
  Variable E : env.
  Variable A : bool -> texpr -> nat -> list span -> ares (nat * tnode).
  Variable lf : nat.
  Hypothesis HA : forall inh e pos stk, aokp (shp e) (A inh e pos stk).

  Lemma a_arep_shape : forall n inh e pos stk acc,
    Forall (has_shape e) acc -> aokp (shp (TAtomicRep e)) (a_arep A n inh e pos stk acc).
  Proof.
    induction n as [|n IH]; intros inh e pos stk acc Hacc; [exact I|]. cbn [a_arep].
    apply aokp_bind with (G := shp e); [apply HA| |apply shape_all, Forall_rev, Hacc].
    intros [p t] stk' Ht. apply IH. constructor; assumption.
  Qed.

  Lemma a_seq_shape k b inh : forall es first pos stk acc done,
    Forall2 (fun e it => has_shape e (snd it)) done (rev acc) ->
    aokp (shp (TSeq k (done ++ es))) (a_seq E A lf b inh es first pos stk acc).
  Proof.
    induction es as [|e es IH]; intros first pos stk acc done Hacc; cbn [a_seq].
    - rewrite app_nil_r. apply has_shape_seq_intro, Hacc.
    - apply aokp_bind with (G := fun _ => True); [apply aokp_true| |exact I]. intros [p1 skd] stk1 _.
      apply aokp_bind with (G := shp e); [apply HA| |exact I]. intros [p2 t] stk2 Ht.
      change (e :: es) with ([e] ++ es). rewrite app_assoc. apply IH.
      cbn [rev]. apply Forall2_app; [exact Hacc|]. repeat constructor. exact Ht.
  Qed.

  Lemma a_choice_shape all inh : forall es i pos stk,
    skipn i all = es -> aokp (shp (TChoice all)) (a_choice A inh (length all) es i pos stk).
  Proof.
    induction es as [|e es IH]; intros i pos stk Hs; [exact I|]. cbn [a_choice].
    rewrite skipn_nth_error in Hs. destruct (nth_error all i) eqn:En; [|discriminate Hs]. injection Hs as -> Hs.
    apply aokp_bind with (G := shp e); [apply HA| |apply IH, Hs].
    intros [p t] stk' Ht. exact (has_shape_choice_intro all i t e En Ht).
  Qed.

  Lemma a_unit_shape b inh e i pos stk :
    aokp (fun pi => has_shape e (snd (snd pi))) (a_unit E A lf b inh e i pos stk).
  Proof.
    apply aokp_bind with (G := fun _ => True); [apply aokp_true| |exact I]. intros [p1 skd] stk1 _.
    apply aokp_bind with (G := shp e); [apply HA| |exact I]. intros [p2 t] stk2 Ht. exact Ht.
  Qed.

  Lemma a_rep_shape k b inh mn mx e : forall n i pos stk acc,
    Forall (fun it => has_shape e (snd it)) acc ->
    aokp (shp (TRep k mn mx e)) (a_rep E A lf n b inh mn mx e i pos stk acc).
  Proof.
    assert (Hout : forall i (pos : nat) stk acc, Forall (fun it => has_shape e (snd it)) acc ->
              aokp (shp (TRep k mn mx e)) (if i <? mn then AFail else AOk (pos, NRep (bounded mx) (rev acc)) stk)).
    { intros i pos stk acc Hacc. destruct (i <? mn); [exact I|]. apply has_shape_rep_intro, Forall_rev, Hacc. }
    induction n as [|n IH]; intros i pos stk acc Hacc; cbn [a_rep]; destruct (below i mx); try apply Hout, Hacc; [exact I|].
    apply aokp_bind with (G := fun pi => has_shape e (snd (snd pi))); [apply a_unit_shape| |apply Hout, Hacc].
    intros [p it] stk' Hit. apply IH. constructor; assumption.
  Qed.

  Lemma a_arr_shape inh e m : forall n pos stk acc,
    Forall (has_shape e) acc -> aokp (shp (TArr m e)) (a_arr A n inh e pos stk acc).
  Proof.
    induction n as [|n IH]; intros pos stk acc Hacc; cbn [a_arr]; [apply shape_all, Forall_rev, Hacc|].
    apply aokp_bind with (G := shp e); [apply HA| |exact I].
    intros [p t] stk' Ht. apply IH. constructor; assumption.
  Qed.

  Lemma a_newline_shape : forall alts pos stk, aokp (shp TNewline) (a_newline E alts pos stk).
  Proof.
    induction alts as [|[bs k] alts IH]; intros pos stk; [exact I|]. cbn [a_newline].
    apply aokp_lift. intros [p'|]; [exact I|apply IH].
  Qed.

  Lemma a_rule_shape inh r arg pos stk : aokp (rule_node_ok E r) (a_step E A lf inh (TRule r arg) pos stk).
  Proof.
    cbn [a_step]. apply aokp_bind with (G := shp (r_body (e_rules E r))); [apply HA| |exact I].
    intros [p t] stk' Ht. unfold rule_node_ok. destruct (r_emis (e_rules E r)); try (apply aokp_lift; intros sp).
    - exists None, (Some sp). split; reflexivity.
    - exists (Some t), None. split; [reflexivity|exact Ht].
    - exists (Some t), (Some sp). split; [reflexivity|exact Ht].
  Qed.

  Lemma a_step_shape inh e pos stk : aokp (shp e) (a_step E A lf inh e pos stk).
  Proof.
    destruct e; cbn [a_step]; unfold aleaf.
    1-6, 8-10, 17, 19-24, 27-29: leaf; constructor.
    - apply a_newline_shape.
    - apply (a_seq_shape k _ _ es true pos stk [] []). constructor.
    - apply a_choice_shape. reflexivity.
    - apply aokp_bind with (G := shp e); [apply HA|intros [p t] stk' Ht; exact Ht|exact I].
    - apply a_rep_shape. constructor.
    - apply a_arep_shape. constructor.
    - apply aokp_bind with (G := shp e); [apply HA|intros [p t] stk' Ht; exact Ht|exact I].
    - apply aokp_bind with (G := shp e); [apply HA| |exact I]. intros [p t] stk' Ht. apply aokp_lift. intros. exact Ht.
    - apply a_arr_shape. constructor.
    - apply aokp_bind with (G := shp e1); [apply HA| |exact I]. intros [p1 t1] stk1 H1.
      apply aokp_bind with (G := shp e2); [apply HA| |exact I]. intros [p2 t2] stk2 H2. split; assumption.
  Qed.
End AShape.

Lemma aparse_shapes E : forall fuel inh e pos stk, aokp (shp e) (aparse E fuel inh e pos stk).
Proof. induction fuel as [|n IH]; intros; [exact I|]. apply a_step_shape, IH. Qed.

Lemma aparse_rule_content E fuel inh r arg pos stk p r' c sp stk' :
  aparse E fuel inh (TRule r arg) pos stk = AOk (p, NRule r' (Some c) sp) stk' ->
  r' = r /\ has_shape (r_body (e_rules E r)) c.
Proof.
  destruct fuel as [|n]; [discriminate|]. intros H.
  pose proof (a_rule_shape E (aparse E n) n (aparse_shapes E n) inh r arg pos stk) as K. cbn [aparse] in H. rewrite H in K.
  destruct K as (c' & sp' & Ht & Hc). injection Ht as -> <- _. split; [reflexivity|exact Hc].
Qed.

Lemma env_of_rule eoi g I pred r0 d :
  r0 <> eoi -> lookup_rule (g_rules g) r0 = Some d ->
  e_rules (env_of eoi g I pred) r0 = rdef_of_orule eoi d.
Proof.
  intros Hr Hl. cbn [env_of e_rules]. apply N.eqb_neq in Hr. rewrite Hr, Hl. reflexivity.
Qed.

(* every rule node the parser builds -- at the entry point or nested, whatever the position, state, inherited flag and skip
   argument -- stores in `content` a tree of the shape of the translated body of the grammar rule; only an atomic rule
   stores none *)
Lemma parsed_rule_node eoi g I pred fuel inh arg pos st r0 d p t st' :
  r0 <> eoi -> lookup_rule (g_rules g) r0 = Some d ->
  tparse (env_of eoi g I pred) fuel inh (TRule r0 arg) pos st = Ok (p, t) st' ->
  exists c sp, t = NRule r0 c sp /\
    match c with
    | Some c' => has_shape (Translate.tr eoi (skip_of_kind (o_kind d)) (o_expr d)) c'
    | None => emis_of_kind (o_kind d) = EmSpan
    end.
Proof.
  intros Hr Hl H. pose proof (tparse_rule_node (env_of eoi g I pred) fuel inh r0 arg pos st) as K.
  rewrite H in K. unfold rule_node_ok in K. rewrite (env_of_rule eoi g I pred r0 d Hr Hl) in K. exact K.
Qed.

Theorem parsed_rule_content_shape eoi g I pred fuel inh arg pos st r0 d p c sp st' :
  r0 <> eoi -> lookup_rule (g_rules g) r0 = Some d ->
  tparse (env_of eoi g I pred) fuel inh (TRule r0 arg) pos st = Ok (p, NRule r0 (Some c) sp) st' ->
  has_shape (Translate.tr eoi (skip_of_kind (o_kind d)) (o_expr d)) c.
Proof.
  intros Hr Hl H. destruct (parsed_rule_node _ _ _ _ _ _ _ _ _ _ _ _ _ _ Hr Hl H) as (c' & sp' & Ht & Hc).
  injection Ht as <- _. exact Hc.
Qed.

Theorem parsed_rule_getters_direct eoi g I pred fuel inh arg pos st r0 d x gn p c sp st' :
  r0 <> eoi -> lookup_rule (g_rules g) r0 = Some d ->
  tparse (env_of eoi g I pred) fuel inh (TRule r0 arg) pos st = Ok (p, NRule r0 (Some c) sp) st' ->
  getter (o_expr d) (IdRule x) = Some gn -> x <> eoi ->
  flatten_gval (eval_g gn c) = direct_refs x c.
Proof. eauto using getters_direct, parsed_rule_content_shape. Qed.

Theorem parsed_rule_getters_mention eoi g I pred fuel inh arg pos st r0 d x gn p c sp st' :
  r0 <> eoi -> lookup_rule (g_rules g) r0 = Some d ->
  tparse (env_of eoi g I pred) fuel inh (TRule r0 arg) pos st = Ok (p, NRule r0 (Some c) sp) st' ->
  getter (o_expr d) x = Some gn ->
  flatten_gval (eval_g gn c) = mention_refs x (o_expr d) c.
Proof. eauto using getters_ident, parsed_rule_content_shape. Qed.

Theorem parsed_rule_getters_direct_eoi eoi g I pred fuel inh arg pos st r0 d gn p c sp st' :
  r0 <> eoi -> lookup_rule (g_rules g) r0 = Some d ->
  tparse (env_of eoi g I pred) fuel inh (TRule r0 arg) pos st = Ok (p, NRule r0 (Some c) sp) st' ->
  mentions eoi (o_expr d) = false ->
  getter (o_expr d) (IdBuiltin BEoi) = Some gn ->
  flatten_gval (eval_g gn c) = direct_refs eoi c.
Proof. eauto using getters_direct_eoi, parsed_rule_content_shape. Qed.

(* a successful parse of a rule for which accessors are emitted (rule_getters: every kind but atomic `@`) always returns a
   rule node WITH content *)
Lemma try_parse_partial_content eoi g I pred fuel r0 d x gn p t st' :
  r0 <> eoi -> lookup_rule (g_rules g) r0 = Some d ->
  try_parse_partial (env_of eoi g I pred) fuel r0 = Ok (p, t) st' ->
  lookup x (rule_getters d) = Some gn ->
  exists c sp, t = NRule r0 (Some c) sp /\
               has_shape (Translate.tr eoi (skip_of_kind (o_kind d)) (o_expr d)) c /\
               getter (o_expr d) x = Some gn.
Proof.
  intros Hr Hl H Hg. destruct (parsed_rule_node _ _ _ _ _ _ _ _ _ _ _ _ _ _ Hr Hl H) as (c & sp & -> & Hc).
  unfold rule_getters in Hg. destruct c as [c|]; [|rewrite Hc in Hg; discriminate Hg].
  exists c, sp. split; [reflexivity|]. split; [exact Hc|]. destruct (emis_of_kind (o_kind d)); [discriminate Hg| |]; exact Hg.
Qed.

Theorem try_parse_partial_call_getter eoi g I pred fuel r0 d x gn p t st' :
  r0 <> eoi -> lookup_rule (g_rules g) r0 = Some d ->
  try_parse_partial (env_of eoi g I pred) fuel r0 = Ok (p, t) st' ->
  lookup (IdRule x) (rule_getters d) = Some gn -> x <> eoi ->
  exists c sp, t = NRule r0 (Some c) sp /\
               has_shape (Translate.tr eoi (skip_of_kind (o_kind d)) (o_expr d)) c /\
               flatten_gval (call_getter gn t) = direct_refs x c.
Proof.
  intros Hr Hl H Hg Hx. destruct (try_parse_partial_content _ _ _ _ _ _ _ _ _ _ _ _ Hr Hl H Hg) as (c & sp & -> & Hc & Hg').
  exists c, sp. split; [reflexivity|]. split; [exact Hc|]. exact (getters_direct eoi _ _ x gn c Hx Hc Hg').
Qed.

Lemma gtype_wrap g ed :
  gtype (wrap g ed) =
  match ed with
  | EContent | EContentI _ => gtype g
  | EChoiceI _ | EOptional => opt_wrap (gtype g)
  | EContents => TyVec (gtype g)
  end.
Proof.
  destruct ed; cbn [wrap gtype]; try reflexivity; rewrite flattenable_char; unfold opt_wrap; reflexivity.
Qed.

Lemma gtype_of_parts l : option_map gtype (of_parts l) = tuple_of (map gtype l).
Proof. destruct l as [|a [|b r]]; reflexivity. Qed.

Definition stys (f : oexpr -> option gty) (es : list oexpr) : list gty :=
  fold_right (fun e l => opt_cons (f e) l) [] es.

Lemma spec_type_seq x a b : spec_type x (OSeq a b) = tuple_of (stys (spec_type x) (a :: seq_elems b)).
Proof. cbn [spec_type stys fold_right]. rewrite <- seq_spine. reflexivity. Qed.

Lemma spec_type_choice x a b :
  spec_type x (OChoice a b) = tuple_of (stys (fun e => option_map opt_wrap (spec_type x e)) (a :: choice_elems b)).
Proof. cbn [spec_type stys fold_right]. rewrite <- choice_spine. reflexivity. Qed.

Lemma collect_types mk x f es : forall i,
  Forall (fun e => forall j, option_map (fun g => gtype (wrap g (mk j))) (lookup x (getter_of e)) = f e) es ->
  map gtype (collect mk x i es) = stys f es.
Proof.
  intros i H. revert i. induction H as [|e r He _ IH]; intros i; [reflexivity|].
  cbn [collect stys fold_right]. rewrite <- (He i).
  destruct (lookup x (getter_of e)); cbn [option_map opt_cons map]; rewrite IH; reflexivity.
Qed.

Theorem getter_type_spec e x : option_map gtype (getter e x) = spec_type x e.
Proof.
  unfold getter.
  induction e as [s|s|lo hi|i|a b|e IH|e IH|a b IH|a b IH|e IH|e IH|ss|e IH|e IH] using oexpr_spine_ind;
    try reflexivity.
  (* one edge in front: `&e`, `e?`, `e*`, PUSH(e) *)
  2, 5-7: cbn [getter_of spec_type]; rewrite lookup_prepend, <- IH;
    destruct (lookup x (getter_of e)); cbn [option_map]; rewrite ?gtype_wrap; reflexivity.
  - cbn [getter_of from_rule lookup spec_type]. destruct (ident_eqb_spec i x) as [->|]; reflexivity.
  - rewrite getter_seq_collect, gtype_of_parts, spec_type_seq. f_equal. apply collect_types.
    eapply Forall_impl; [|exact IH]. intros e He j. rewrite <- He. destruct (lookup x (getter_of e)); reflexivity.
  - rewrite getter_choice_collect, gtype_of_parts, spec_type_choice. f_equal. apply collect_types.
    eapply Forall_impl; [|exact IH]. intros e He j. rewrite <- He.
    destruct (lookup x (getter_of e)); cbn [option_map]; rewrite ?gtype_wrap; reflexivity.
  - exact IH.
Qed.

Theorem getter_type e x gn : getter e x = Some gn -> spec_type x e = Some (gtype gn).
Proof. intros H. rewrite <- getter_type_spec, H. reflexivity. Qed.

Theorem getter_none_iff e x : getter e x = None <-> spec_type x e = None.
Proof.
  rewrite <- getter_type_spec. destruct (getter e x); cbn [option_map]; split; intros H; try reflexivity; discriminate H.
Qed.

Lemma opt_wrap_nno t : no_nested_option t -> no_nested_option (opt_wrap t).
Proof.
  unfold opt_wrap. intros H. destruct (is_option t) eqn:Eo; [exact H|].
  cbn [no_nested_option]. split; assumption.
Qed.

Lemma tuple_of_nno ts t : Forall no_nested_option ts -> tuple_of ts = Some t -> no_nested_option t.
Proof.
  intros Hf H.
  assert (Ht : no_nested_option (TyTuple ts)) by (clear H; cbn [no_nested_option]; induction Hf; [exact I|split; assumption]).
  destruct ts as [|a [|b r]]; cbn [tuple_of] in H; [discriminate H| |]; injection H as <-; [apply Ht|exact Ht].
Qed.

Lemma stys_nno f es :
  Forall (fun e => forall t, f e = Some t -> no_nested_option t) es -> Forall no_nested_option (stys f es).
Proof.
  induction 1 as [|e r He _ IH]; [constructor|]. cbn [stys fold_right].
  destruct (f e) as [t|]; cbn [opt_cons]; [constructor; [apply He; reflexivity|]|]; exact IH.
Qed.

Theorem spec_type_no_nested_option e x t : spec_type x e = Some t -> no_nested_option t.
Proof.
  revert t.
  induction e as [s|s|lo hi|i|a b|e IH|e IH|a b IH|a b IH|e IH|e IH|ss|e IH|e IH] using oexpr_spine_ind;
    intros t H; try discriminate H.
  - cbn [spec_type] in H. destruct (ident_eqb i x); inversion H. exact I.
  - apply IH, H.
  - rewrite spec_type_seq in H. eapply tuple_of_nno; [|exact H]. apply stys_nno, IH.
  - rewrite spec_type_choice in H. eapply tuple_of_nno; [|exact H]. apply stys_nno.
    eapply Forall_impl; [|exact IH]. intros e He t' Ht.
    destruct (spec_type x e) as [t0|] eqn:E0; [|discriminate Ht]. injection Ht as <-. apply opt_wrap_nno, He, E0.
  - cbn [spec_type] in H. destruct (spec_type x e) as [t0|]; [|discriminate H]. injection H as <-. apply opt_wrap_nno, IH. reflexivity.
  - cbn [spec_type] in H. destruct (spec_type x e) as [t0|]; [|discriminate H]. injection H as <-. apply (IH t0). reflexivity.
  - apply IH, H.
  - apply IH, H.
Qed.

Theorem getter_no_nested_option e x gn : getter e x = Some gn -> no_nested_option (gtype gn).
Proof. intros H. apply (spec_type_no_nested_option e x). apply getter_type. exact H. Qed.

Lemma forall2_nth_error {A B} (R : A -> B -> Prop) l l' :
  Forall2 R l l' -> forall j a, nth_error l j = Some a -> exists b, nth_error l' j = Some b /\ R a b.
Proof.
  induction 1 as [|a0 b0 l l' Hab _ IH]; intros j a Hn; [destruct j; discriminate Hn|].
  destruct j as [|j]; cbn [nth_error] in *.
  - inversion Hn; subst. eauto.
  - apply IH. exact Hn.
Qed.

(* a property of every component, from the elements; an element's index is its position in the spine *)
Lemma collect_Forall mk x (W : gnode -> Prop) : forall es i,
  (forall j e g, nth_error es j = Some e -> lookup x (getter_of e) = Some g -> W (wrap g (mk (i + j)))) ->
  Forall W (collect mk x i es).
Proof.
  induction es as [|e r IH]; intros i H; [constructor|]. cbn [collect].
  assert (Hr : Forall W (collect mk x (S i) r)).
  { apply IH. intros j e' g Hn Hl. specialize (H (S j) e' g Hn Hl). rewrite Nat.add_succ_r in H. exact H. }
  destruct (lookup x (getter_of e)) as [g|] eqn:El; [|exact Hr]. constructor; [|exact Hr].
  specialize (H 0 e g eq_refl El). rewrite Nat.add_0_r in H. exact H.
Qed.

Section Typed.
  Variable S : ident -> tnode -> Prop.

  (* the value of node [g] on the stored tree [t] has the type of [g] *)
  Definition V (t : tnode) (g : gnode) : Prop := val_of_type S (eval_g g t) (gtype g).

  Lemma val_of_parts t l g : Forall (V t) l -> of_parts l = Some g -> V t g.
  Proof.
    intros H. assert (Ht : V t (GTuple l)).
    { unfold V. cbn [eval_g gtype val_of_type]. induction H; [exact I|split; assumption]. }
    destruct l as [|a [|b r]]; intros [= <-]; [apply Ht|exact Ht].
  Qed.

  Lemma val_opt_shape v ty : val_of_type S v ty -> is_option ty = true -> exists o, v = VOpt o.
  Proof.
    destruct ty; cbn [is_option]; intros Hv Ho; try discriminate Ho.
    destruct v; cbn [val_of_type] in Hv; try contradiction Hv. eauto.
  Qed.

  Lemma opt_result_typed fl o ty :
    is_option ty = fl -> (forall v, o = Some v -> val_of_type S v ty) ->
    val_of_type S (opt_result fl o) (if fl then ty else TyOption ty).
  Proof.
    intros <- Ho. destruct (is_option ty) eqn:Eo; cbn [opt_result].
    - destruct o as [v|]; cbn [flatten_opt].
      + specialize (Ho v eq_refl). destruct (val_opt_shape _ _ Ho Eo) as [o' ->]. exact Ho.
      + destruct ty; try discriminate Eo. exact I.
    - destruct o as [v|]; cbn [val_of_type]; [apply Ho; reflexivity|exact I].
  Qed.
End Typed.

Section TypedGetter.
  Variable eoi : N.
  Variable k : sk.
  Variable x : ident.

  (* a reference to identifier [y] points to a node of the type [y] translates to *)
  Definition ref_ok (y : ident) (n : tnode) : Prop := has_shape (tr_ident eoi k y) n.

  Lemma getter_val e : forall t,
    has_shape (Translate.tr eoi k e) t ->
    forall g, lookup x (getter_of e) = Some g -> V ref_ok t g.
  Proof.
    induction e as [s|s|lo hi|i|a b|e IH|e IH|a b IH|a b IH|e IH|e IH|ss|e IH|e IH] using oexpr_spine_ind;
      intros t Hs g Hg; try discriminate Hg.
    - cbn [getter_of from_rule lookup] in Hg. destruct (ident_eqb i x); inversion Hg; subst. exact Hs.
    - cbn [Translate.tr] in Hs. destruct (shape_pos _ _ Hs) as (c & -> & Hc).
      cbn [getter_of] in Hg. rewrite lookup_prepend in Hg.
      destruct (lookup x (getter_of e)) as [g1|]; inversion Hg; subst. apply (IH c Hc g1 eq_refl).
    - destruct (shape_tr_seq _ _ _ _ _ Hs) as (items & -> & Hf). rewrite getter_seq_collect in Hg.
      eapply val_of_parts; [|exact Hg]. apply collect_Forall. intros j e g1 Hnth Hl. cbn [Nat.add wrap].
      destruct (forall2_nth_error _ _ _ Hf j e Hnth) as (it & Hit & Hsh).
      unfold V. cbn [eval_g gtype]. rewrite Hit. rewrite Forall_forall in IH.
      exact (IH e (nth_error_In _ _ Hnth) _ Hsh g1 Hl).
    - destruct (shape_tr_choice _ _ _ _ _ Hs) as (i & c & e0 & -> & Hn & Hc). rewrite getter_choice_collect in Hg.
      eapply val_of_parts; [|exact Hg]. apply collect_Forall. intros j e g1 Hj Hl. cbn [Nat.add wrap].
      unfold V. cbn [eval_g gtype].
      replace (j <? length (a :: choice_elems b)) with true by (symmetry; apply Nat.ltb_lt, nth_error_Some; congruence).
      apply opt_result_typed; [symmetry; apply flattenable_char|].
      intros v Hv. destruct (Nat.eqb_spec i j) as [->|]; [|discriminate Hv]. injection Hv as <-.
      rewrite Hn in Hj. injection Hj as ->. rewrite Forall_forall in IH. exact (IH e (nth_error_In _ _ Hn) c Hc g1 Hl).
    - cbn [Translate.tr] in Hs. cbn [getter_of] in Hg. rewrite lookup_prepend in Hg.
      destruct (lookup x (getter_of e)) as [g1|]; inversion Hg; subst. unfold V. cbn [wrap gtype].
      destruct (shape_opt _ _ Hs) as [->|(c & -> & Hc)]; cbn [eval_g option_map];
        (apply opt_result_typed; [symmetry; apply flattenable_char|]); intros v Hv; [discriminate Hv|].
      injection Hv as <-. apply (IH c Hc g1 eq_refl).
    - cbn [Translate.tr] in Hs. destruct (shape_rep _ _ _ _ _ Hs) as (bd & items & -> & Hf).
      cbn [getter_of] in Hg. rewrite lookup_prepend in Hg.
      destruct (lookup x (getter_of e)) as [g1|]; inversion Hg; subst.
      unfold V. cbn [wrap eval_g gtype val_of_type]. clear Hs Hg.
      induction Hf as [|it its Hit _ IHf]; cbn [map]; [exact I|].
      split; [|exact IHf]. apply (IH _ Hit g1 eq_refl).
    - cbn [Translate.tr] in Hs. destruct (shape_push _ _ Hs) as (c & -> & Hc).
      cbn [getter_of] in Hg. rewrite lookup_prepend in Hg.
      destruct (lookup x (getter_of e)) as [g1|]; inversion Hg; subst. apply (IH c Hc g1 eq_refl).
    - apply (IH t Hs g Hg).
  Qed.
End TypedGetter.

(* on every stored value of the right shape, the accessor evaluates (no VErr: nothing rustc would reject) to a value of
   exactly the emitted type, every reference in it pointing to a node of the type the identifier translates to *)
Theorem getter_value_typed eoi k e x gn t :
  has_shape (Translate.tr eoi k e) t -> getter e x = Some gn ->
  val_of_type (ref_ok eoi k) (eval_g gn t) (gtype gn).
Proof. intros Hs Hg. exact (getter_val eoi k x e t Hs gn Hg). Qed.

Theorem parsed_rule_getter_typed eoi g I pred fuel inh arg pos st r0 d x gn p c sp st' :
  r0 <> eoi -> lookup_rule (g_rules g) r0 = Some d ->
  tparse (env_of eoi g I pred) fuel inh (TRule r0 arg) pos st = Ok (p, NRule r0 (Some c) sp) st' ->
  getter (o_expr d) x = Some gn ->
  val_of_type (ref_ok eoi (skip_of_kind (o_kind d))) (eval_g gn c) (gtype gn) /\
  spec_type x (o_expr d) = Some (gtype gn) /\ no_nested_option (gtype gn).
Proof. intros. split; [|split]; eauto using getter_value_typed, parsed_rule_content_shape, getter_type, getter_no_nested_option. Qed.

(* a value of a type is never the rejected expression *)
Lemma val_of_type_not_err S ty : ~ val_of_type S VErr ty.
Proof. destruct ty; exact (fun H => H). Qed.

(* r = { (a ~ b)? ~ (a | b ~ a)* ~ &b ~ PUSH(b)? ~ (b | a)? }   a = { "a" }   b = { "b" }   (r = 0, a = 1, b = 2) *)
Module Example.
  Definition xa : oexpr := OIdent (IdRule 1).
  Definition xb : oexpr := OIdent (IdRule 2).
  Definition xe : oexpr :=
    OSeq (OOpt (OSeq xa xb))
      (OSeq (ORep (OChoice xa (OSeq xb xa)))
        (OSeq (OPosPred xb)
          (OSeq (OOpt (OPush xb)) (OOpt (OChoice xb xa))))).
  Definition xg : ogrammar :=
    mk_ogrammar [ mk_orule 0 KNormal xe; mk_orule 1 KNormal (OStr [97%N]); mk_orule 2 KNormal (OStr [98%N]) ] None None.
  Definition xin : list byte := [97; 98; 97; 98; 97; 98; 98]%N.       (* "abababb" = ab | a | ba | &b | b | b *)
  Definition xenv : env := env_of 99 xg (inp_of_str xin) no_pred.

  Definition ra : ident := IdRule 1.
  Definition rb : ident := IdRule 2.
  Definition na (s e : nat) : tnode := NRule 1 (Some NStr) (Some (s, e)).
  Definition nb (s e : nat) : tnode := NRule 2 (Some NStr) (Some (s, e)).

  (* fn a(&self) -> (Option<&a>, Vec<(Option<&a>, Option<&a>)>, Option<&a>)
     fn b(&self) -> (Option<&b>, Vec<Option<&b>>, &b, Option<&b>, Option<&b>)
     last component: `(b | a)?` would be Option<Option<_>> and is flattened to Option<_>; `&b` and PUSH(b) contribute the
     bare / optional reference; the emitted type is the specified one *)
  Example getter_types :
    option_map gtype (getter xe ra) =
      Some (TyTuple [TyOption (TyRef ra); TyVec (TyTuple [TyOption (TyRef ra); TyOption (TyRef ra)]); TyOption (TyRef ra)]) /\
    spec_type ra xe = option_map gtype (getter xe ra) /\
    option_map gtype (getter xe rb) =
      Some (TyTuple [TyOption (TyRef rb); TyVec (TyOption (TyRef rb)); TyRef rb; TyOption (TyRef rb); TyOption (TyRef rb)]) /\
    spec_type rb xe = option_map gtype (getter xe rb) /\
    getter xe (IdRule 3) = None /\ spec_type (IdRule 3) xe = None.
  Proof. vm_compute. repeat split. Qed.

  (* the parser's own result on "abababb", and the two accessors called on it *)
  Example getter_values :
    match try_parse_partial xenv 40 0, getter xe ra, getter xe rb with
    | Ok (p, t) _, Some ga, Some gb =>
        p = 7 /\
        call_getter ga t =
          VTuple [VOpt (Some (VRef (na 0 1)));
                  VVec [VTuple [VOpt (Some (VRef (na 2 3))); VOpt None];
                        VTuple [VOpt None; VOpt (Some (VRef (na 4 5)))]];
                  VOpt None] /\
        call_getter gb t =
          VTuple [VOpt (Some (VRef (nb 1 2)));
                  VVec [VOpt None; VOpt (Some (VRef (nb 3 4)))];
                  VRef (nb 5 6);
                  VOpt (Some (VRef (nb 5 6)));
                  VOpt (Some (VRef (nb 6 7)))] /\
        (exists c sp, t = NRule 0 (Some c) sp /\
           direct_refs 1 c = [na 0 1; na 2 3; na 4 5] /\
           flatten_gval (call_getter ga t) = direct_refs 1 c /\
           direct_refs 2 c = [nb 1 2; nb 3 4; nb 5 6; nb 5 6; nb 6 7] /\
           flatten_gval (call_getter gb t) = direct_refs 2 c)
    | _, _, _ => False
    end.
  Proof. vm_compute. repeat split. eexists. eexists. repeat split. Qed.

  (* the general theorems instantiated on this run *)
  Example getter_values_by_theorem p t st' gb :
    try_parse_partial xenv 40 0 = Ok (p, t) st' -> lookup rb (rule_getters (mk_orule 0 KNormal xe)) = Some gb ->
    exists c sp, t = NRule 0 (Some c) sp /\ flatten_gval (call_getter gb t) = direct_refs 2 c.
  Proof.
    intros H Hg.
    destruct (try_parse_partial_call_getter 99 xg (inp_of_str xin) no_pred 40 0 (mk_orule 0 KNormal xe) 2 gb p t st'
                ltac:(discriminate) eq_refl H Hg ltac:(discriminate)) as (c & sp & Ht & _ & Hv).
    exists c, sp. split; assumption.
  Qed.
End Example.
