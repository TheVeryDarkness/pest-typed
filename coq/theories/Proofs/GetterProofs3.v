(* C16, third part: the STRUCTURED value of every emitted accessor (which tuple slot / which Option / which Vec element
   holds which stored node) is the declarative `spec_val` of Model/GetterSpec.v -- not only its type (GetterProofs2.v)
   and its flattening (GetterProofs.v).  By the same induction as `getters_mention` / `getter_type_spec`. *)
From Coq Require Import List NArith Arith Bool.
From PT Require Import Model.Base Model.Texpr Model.Sem.
From PT Require Import Model.Ast Model.Translate Model.GenEnv Model.Getter Model.GetterSpec.
From PT Require Import Proofs.ListFacts Proofs.GenWitness Proofs.GetterProofs Proofs.GetterProofs2.
Import ListNotations.

Lemma eval_of_parts t l :
  option_map (fun g => eval_g g t) (of_parts l) = tuple_val (map (fun g => eval_g g t) l).
Proof. destruct l as [|a [|b r]]; reflexivity. Qed.

Fixpoint vzip (x : ident) (es : list oexpr) (its : list (list tnode * tnode)) : list gval :=
  match es, its with
  | e :: es', it :: its' => opt_consv (spec_val x e (snd it)) (vzip x es' its')
  | _, _ => []
  end.

Lemma spec_val_seq x a b items :
  spec_val x (OSeq a b) (NSeq items) = tuple_val (vzip x (a :: seq_elems b) items).
Proof.
  destruct items as [|it rest]; [reflexivity|].
  set (F := fun e (rec : list (list tnode * tnode) -> list gval) its =>
              match its with [] => [] | it' :: rest' => opt_consv (spec_val x e (snd it')) (rec rest') end).
  transitivity (tuple_val (opt_consv (spec_val x a (snd it)) (fold_right F (fun _ => []) (seq_elems b) rest))).
  - exact (f_equal (fun h => tuple_val (opt_consv (spec_val x a (snd it)) (h rest))) (seq_spine2 F _ b)).
  - cbn [vzip]. do 2 f_equal. revert rest. induction (seq_elems b) as [|e r IH]; intros [|it' rest]; try reflexivity.
    cbn [fold_right vzip]. rewrite <- IH. reflexivity.
Qed.

Fixpoint czip (x : ident) (i : nat) (c : tnode) (j : nat) (es : list oexpr) : list gval :=
  match es with
  | [] => []
  | e :: r => opt_consv (slot_val (spec_type x e) (i =? j) (spec_val x e c)) (czip x i c (S j) r)
  end.

Lemma spec_val_choice x a b n i c :
  spec_val x (OChoice a b) (NChoice n i c) = tuple_val (czip x i c 0 (a :: choice_elems b)).
Proof.
  set (F := fun e (rec : nat -> list gval) j => opt_consv (slot_val (spec_type x e) (i =? j) (spec_val x e c)) (rec (S j))).
  transitivity (tuple_val (F a (fold_right F (fun _ => []) (choice_elems b)) 0)).
  - exact (f_equal (fun h => tuple_val (F a h 0)) (choice_spine2 F _ b)).
  - cbn [czip]. unfold F at 1. do 2 f_equal.
    generalize 1 as j. induction (choice_elems b) as [|e r IH]; intros j; [reflexivity|]. cbn [fold_right czip]. rewrite <- IH. reflexivity.
Qed.

Lemma opt_result_some g t : opt_result (flattenable g) (Some (eval_g g t)) = opt_wrap_val (gtype g) (eval_g g t).
Proof.
  unfold opt_wrap_val. rewrite <- flattenable_char. destruct (flattenable g) eqn:Hf; [|reflexivity].
  apply flatten_opt_some, flattenable_eval, Hf.
Qed.

Lemma opt_result_none fl : opt_result fl None = VOpt None.
Proof. destruct fl; reflexivity. Qed.

Section Value.
  Variable eoi : N.
  Variable k : sk.
  Variable x : ident.

  (* the statement for one expression: on every tree of its shape, the declarative value is what the emitted path
     computes -- and there is no declarative value exactly when no accessor is emitted *)
  Definition gv_ok (e : oexpr) : Prop :=
    forall t, has_shape (Translate.tr eoi k e) t ->
              spec_val x e t = option_map (fun g => eval_g g t) (lookup x (getter_of e)).

  Lemma collect_seq_vals items : forall es i,
    Forall2 (fun e it => spec_val x e (snd it) = option_map (fun g => eval_g g (snd it)) (lookup x (getter_of e)))
            es (skipn i items) ->
    map (fun g => eval_g g (NSeq items)) (collect EContentI x i es) = vzip x es (skipn i items).
  Proof.
    induction es as [|e r IH]; intros i Hf; [reflexivity|].
    rewrite (skipn_nth_error items i) in *. destruct (nth_error items i) as [it|] eqn:En; inversion Hf as [|? ? ? ? He Hr]; subst.
    cbn [collect vzip]. rewrite He, <- (IH (S i) Hr).
    destruct (lookup x (getter_of e)) as [g|]; [|reflexivity]. cbn [option_map opt_consv map wrap eval_g]. rewrite En. reflexivity.
  Qed.

  Lemma collect_choice_vals all i c e0 :
    nth_error all i = Some e0 -> has_shape (Translate.tr eoi k e0) c -> Forall gv_ok all -> forall es j,
    skipn j all = es ->
    map (fun g => eval_g g (NChoice (length all) i c)) (collect EChoiceI x j es) = czip x i c j es.
  Proof.
    intros Hi Hc Hok. induction es as [|e r IH]; intros j Hs; [reflexivity|].
    rewrite skipn_nth_error in Hs. destruct (nth_error all j) as [e'|] eqn:En; [|discriminate Hs]. injection Hs as -> Hs.
    assert (Hj : (j <? length all) = true) by (apply Nat.ltb_lt, nth_error_Some; congruence).
    cbn [collect czip]. rewrite <- (IH (S j) Hs), <- (getter_type_spec e x). unfold getter.
    destruct (lookup x (getter_of e)) as [g|] eqn:El; cbn [option_map slot_val]; [|reflexivity].
    cbn [map wrap eval_g]. rewrite Hj. destruct (Nat.eqb_spec i j) as [->|].
    - rewrite Hi in En. injection En as ->. rewrite Forall_forall in Hok.
      rewrite (Hok e (nth_error_In _ _ Hi) c Hc), El. cbn [option_map opt_consv]. rewrite opt_result_some. reflexivity.
    - cbn [opt_consv]. rewrite opt_result_none. reflexivity.
  Qed.

  Lemma rep_vals e g (items : list (list tnode * tnode)) :
    gv_ok e -> lookup x (getter_of e) = Some g ->
    Forall (fun it => has_shape (Translate.tr eoi k e) (snd it)) items ->
    all_some (map (fun it => spec_val x e (snd it)) items) = Some (map (fun it => eval_g g (snd it)) items).
  Proof.
    intros Hok El Hf. induction Hf as [|it its Hit _ IHf]; [reflexivity|].
    cbn [map all_some]. rewrite (Hok _ Hit), El. cbn [option_map]. rewrite IHf. reflexivity.
  Qed.

  Lemma getter_value e : gv_ok e.
  Proof.
    induction e as [s|s|lo hi|i|a b|e IH|e IH|a b IH|a b IH|e IH|e IH|ss|e IH|e IH] using oexpr_spine_ind;
      intros t Hs; try reflexivity; cbn [Translate.tr] in Hs.
    - cbn [spec_val getter_of from_rule lookup]. destruct (ident_eqb i x); reflexivity.
    - destruct (shape_pos _ _ Hs) as (c & -> & Hc).
      cbn [spec_val getter_of]. rewrite lookup_prepend, (IH c Hc). destruct (lookup x (getter_of e)); reflexivity.
    - destruct (shape_tr_seq _ _ _ _ _ Hs) as (items & -> & Hf).
      rewrite getter_seq_collect, eval_of_parts, spec_val_seq. f_equal. symmetry.
      apply (collect_seq_vals items _ 0). eapply Forall2_Forall_l; [exact IH| |exact Hf]. intros e it He. apply He.
    - destruct (shape_tr_choice _ _ _ _ _ Hs) as (i & c & e0 & -> & Hn & Hc).
      rewrite getter_choice_collect, eval_of_parts, spec_val_choice. f_equal. symmetry.
      exact (collect_choice_vals _ i c e0 Hn Hc IH (a :: choice_elems b) 0 eq_refl).
    - cbn [getter_of]. rewrite lookup_prepend. pose proof (getter_type_spec e x) as Hty. unfold getter in Hty.
      destruct (shape_opt _ _ Hs) as [->|(c & -> & Hc)]; cbn [spec_val]; rewrite <- Hty.
      + destruct (lookup x (getter_of e)) as [g|]; cbn [option_map slot_val wrap eval_g]; [|reflexivity].
        rewrite opt_result_none. reflexivity.
      + rewrite (IH c Hc).
        destruct (lookup x (getter_of e)) as [g|]; cbn [option_map slot_val wrap eval_g]; [|reflexivity].
        rewrite opt_result_some. reflexivity.
    - destruct (shape_rep _ _ _ _ _ Hs) as (bd & items & -> & Hf).
      cbn [spec_val getter_of]. rewrite lookup_prepend, <- (getter_type_spec e x). unfold getter.
      destruct (lookup x (getter_of e)) as [g|] eqn:El; cbn [option_map wrap eval_g]; [|reflexivity].
      rewrite (rep_vals e g items IH El Hf). reflexivity.
    - destruct (shape_push _ _ Hs) as (c & -> & Hc).
      cbn [spec_val getter_of]. rewrite lookup_prepend, (IH c Hc). destruct (lookup x (getter_of e)); reflexivity.
    - apply (IH t Hs).
  Qed.
End Value.

Theorem getter_value_spec_eq eoi k e x t :
  has_shape (Translate.tr eoi k e) t ->
  spec_val x e t = option_map (fun g => eval_g g t) (getter e x).
Proof. apply getter_value. Qed.

Theorem getter_value_spec eoi k e x g t :
  has_shape (Translate.tr eoi k e) t -> getter e x = Some g ->
  spec_val x e t = Some (eval_g g t).
Proof. intros Hs Hg. rewrite (getter_value_spec_eq eoi k e x t Hs), Hg. reflexivity. Qed.

Theorem getter_value_spec_none eoi k e x t :
  has_shape (Translate.tr eoi k e) t -> getter e x = None ->
  spec_val x e t = None.
Proof. intros Hs Hg. rewrite (getter_value_spec_eq eoi k e x t Hs), Hg. reflexivity. Qed.

(* the structured value has the declared type (so it is never the rejected expression VErr) *)
Theorem spec_val_typed eoi k e x t v :
  has_shape (Translate.tr eoi k e) t -> spec_val x e t = Some v ->
  exists ty, spec_type x e = Some ty /\ val_of_type (ref_ok eoi k) v ty /\ no_nested_option ty.
Proof.
  intros Hs Hv. rewrite (getter_value_spec_eq eoi k e x t Hs) in Hv.
  destruct (getter e x) as [g|] eqn:Hg; cbn [option_map] in Hv; inversion Hv; subst v.
  exists (gtype g). split; [apply getter_type; exact Hg|]. split.
  - apply (getter_value_typed eoi k e x g t Hs Hg).
  - apply (getter_no_nested_option e x g Hg).
Qed.

Lemma tuple_of_none ts : tuple_of ts = None <-> ts = [].
Proof. destruct ts as [|a [|b r]]; cbn [tuple_of]; split; intros H; try reflexivity; discriminate H. Qed.

Lemma stys_nil f a r : stys f (a :: r) = [] <-> f a = None /\ stys f r = [].
Proof.
  cbn [stys fold_right]. destruct (f a); cbn [opt_cons]; split; try discriminate.
  - intros [H _]. discriminate H.
  - intros H. split; [reflexivity|exact H].
  - intros [_ H]. exact H.
Qed.

Lemma stys_one f e : stys f [e] = [] <-> f e = None.
Proof. cbn [stys fold_right]. destruct (f e); cbn [opt_cons]; split; intros H; try reflexivity; discriminate H. Qed.

Lemma option_map_none {A B} (f : A -> B) o : option_map f o = None <-> o = None.
Proof. destruct o; cbn [option_map]; split; intros H; try reflexivity; discriminate H. Qed.

Lemma and_iff {A B C D : Prop} : (A <-> C) -> (B <-> D) -> (A /\ B <-> C /\ D).
Proof. tauto. Qed.

(* the elements of the rest of a spine have no type exactly when the rest, taken as one expression, has none *)
Lemma stys_seq_tail x b : stys (spec_type x) (seq_elems b) = [] <-> spec_type x b = None.
Proof. destruct b; try apply stys_one. rewrite spec_type_seq. symmetry. apply tuple_of_none. Qed.

Lemma stys_choice_tail x b :
  stys (fun e => option_map opt_wrap (spec_type x e)) (choice_elems b) = [] <-> spec_type x b = None.
Proof.
  destruct b; try (exact (iff_trans (stys_one _ _) (option_map_none _ _))).
  rewrite spec_type_choice. symmetry. apply tuple_of_none.
Qed.

Lemma spec_type_mentioned x e : spec_type x e = None <-> mentioned x e = false.
Proof.
  induction e as [s|s|lo hi|i|a b|e IH|e IH|a IHa b IHb|a IHa b IHb|e IH|e IH|ss|e IH|e IH]; cbn [mentioned];
    try (split; reflexivity); try exact IH.
  - cbn [spec_type]. destruct (ident_eqb i x); split; intros H; try reflexivity; discriminate H.
  - rewrite spec_type_seq.
    apply (iff_trans (tuple_of_none _)), (iff_trans (stys_nil _ _ _)), (iff_trans (and_iff IHa (iff_trans (stys_seq_tail x b) IHb))).
    symmetry. apply orb_false_iff.
  - rewrite spec_type_choice.
    apply (iff_trans (tuple_of_none _)), (iff_trans (stys_nil _ _ _)),
      (iff_trans (and_iff (iff_trans (option_map_none _ _) IHa) (iff_trans (stys_choice_tail x b) IHb))).
    symmetry. apply orb_false_iff.
  - exact (iff_trans (option_map_none _ _) IH).
  - exact (iff_trans (option_map_none _ _) IH).
Qed.

(* the structured value is undefined exactly when [x] is not mentioned outside a negative predicate *)
Theorem spec_val_none_iff eoi k e x t :
  has_shape (Translate.tr eoi k e) t -> (spec_val x e t = None <-> mentioned x e = false).
Proof.
  intros Hs. rewrite (getter_value_spec_eq eoi k e x t Hs), option_map_none, getter_none_iff.
  apply spec_type_mentioned.
Qed.

Theorem spec_val_flatten eoi k e x t v :
  has_shape (Translate.tr eoi k e) t -> spec_val x e t = Some v -> flatten_gval v = mention_refs x e t.
Proof.
  intros Hs Hv. rewrite (getter_value_spec_eq eoi k e x t Hs) in Hv.
  destruct (getter e x) as [g|] eqn:Hg; cbn [option_map] in Hv; inversion Hv; subst v.
  apply (getters_ident eoi k e x g t Hs Hg).
Qed.

Theorem parsed_rule_getter_value eoi g I pred fuel inh arg pos st r0 d x gn p c sp st' :
  r0 <> eoi -> lookup_rule (g_rules g) r0 = Some d ->
  tparse (env_of eoi g I pred) fuel inh (TRule r0 arg) pos st = Ok (p, NRule r0 (Some c) sp) st' ->
  getter (o_expr d) x = Some gn ->
  spec_val x (o_expr d) c = Some (eval_g gn c).
Proof. eauto using getter_value_spec, parsed_rule_content_shape. Qed.

Theorem parsed_rule_getter_value_none eoi g I pred fuel inh arg pos st r0 d x p c sp st' :
  r0 <> eoi -> lookup_rule (g_rules g) r0 = Some d ->
  tparse (env_of eoi g I pred) fuel inh (TRule r0 arg) pos st = Ok (p, NRule r0 (Some c) sp) st' ->
  getter (o_expr d) x = None ->
  spec_val x (o_expr d) c = None.
Proof. eauto using getter_value_spec_none, parsed_rule_content_shape. Qed.

Theorem try_parse_partial_call_getter_value eoi g I pred fuel r0 d x gn p t st' :
  r0 <> eoi -> lookup_rule (g_rules g) r0 = Some d ->
  try_parse_partial (env_of eoi g I pred) fuel r0 = Ok (p, t) st' ->
  lookup x (rule_getters d) = Some gn ->
  exists c sp, t = NRule r0 (Some c) sp /\
               has_shape (Translate.tr eoi (skip_of_kind (o_kind d)) (o_expr d)) c /\
               spec_val x (o_expr d) c = Some (call_getter gn t).
Proof.
  intros Hr Hl H Hg. destruct (try_parse_partial_content _ _ _ _ _ _ _ _ _ _ _ _ Hr Hl H Hg) as (c & sp & -> & Hc & Hg').
  exists c, sp. split; [reflexivity|]. split; [exact Hc|]. exact (getter_value_spec eoi _ _ x gn c Hc Hg').
Qed.

(* r = { "a" ~ x | "b" ~ x ~ y }   x = { "x" }   y = { "y" }     (r = 0, x = 1, y = 2)
   fn x(&self) -> (Option<&x>, Option<&x>)      fn y(&self) -> Option<&y>
   "ax" must give (Some(x@1..2), None): the value (None, Some(x@1..2)) has the same type and the same flattening *)
Module SlotExample.
  Definition ex : oexpr := OIdent (IdRule 1).
  Definition ey : oexpr := OIdent (IdRule 2).
  Definition ce : oexpr := OChoice (OSeq (OStr [97%N]) ex) (OSeq (OStr [98%N]) (OSeq ex ey)).
  Definition cg : ogrammar :=
    mk_ogrammar [ mk_orule 0 KNormal ce; mk_orule 1 KNormal (OStr [120%N]); mk_orule 2 KNormal (OStr [121%N]) ] None None.
  Definition cenv (inp : list byte) : env := env_of 99 cg (inp_of_str inp) no_pred.
  Definition rx : ident := IdRule 1.
  Definition ry : ident := IdRule 2.
  Definition nx (s e : nat) : tnode := NRule 1 (Some NStr) (Some (s, e)).
  Definition ny (s e : nat) : tnode := NRule 2 (Some NStr) (Some (s, e)).

  Example slot_types :
    spec_type rx ce = Some (TyTuple [TyOption (TyRef rx); TyOption (TyRef rx)]) /\
    spec_type ry ce = Some (TyOption (TyRef ry)).
  Proof. vm_compute. split; reflexivity. Qed.

  (* input "ax" *)
  Example slot_ax :
    match try_parse_partial (cenv [97; 120]%N) 40 0, getter ce rx, getter ce ry with
    | Ok (p, NRule 0 (Some c) _) _, Some gx, Some gy =>
        p = 2 /\
        spec_val rx ce c = Some (VTuple [VOpt (Some (VRef (nx 1 2))); VOpt None]) /\
        spec_val rx ce c <> Some (VTuple [VOpt None; VOpt (Some (VRef (nx 1 2)))]) /\
        flatten_gval (VTuple [VOpt None; VOpt (Some (VRef (nx 1 2)))]) = mention_refs rx ce c /\
        spec_val rx ce c = Some (eval_g gx c) /\
        spec_val ry ce c = Some (VOpt None) /\
        spec_val ry ce c = Some (eval_g gy c) /\
        spec_val (IdRule 3) ce c = None
    | _, _, _ => False
    end.
  Proof. vm_compute. repeat split. intros H. discriminate H. Qed.

  (* input "bxy" *)
  Example slot_bxy :
    match try_parse_partial (cenv [98; 120; 121]%N) 40 0, getter ce rx, getter ce ry with
    | Ok (p, NRule 0 (Some c) _) _, Some gx, Some gy =>
        p = 3 /\
        spec_val rx ce c = Some (VTuple [VOpt None; VOpt (Some (VRef (nx 1 2)))]) /\
        spec_val rx ce c <> Some (VTuple [VOpt (Some (VRef (nx 1 2))); VOpt None]) /\
        spec_val rx ce c = Some (eval_g gx c) /\
        spec_val ry ce c = Some (VOpt (Some (VRef (ny 2 3)))) /\
        spec_val ry ce c = Some (eval_g gy c)
    | _, _, _ => False
    end.
  Proof. vm_compute. repeat split. intros H. discriminate H. Qed.

  (* the general theorem instantiated on the run on "ax" *)
  Example slot_by_theorem p t st' gx :
    try_parse_partial (cenv [97; 120]%N) 40 0 = Ok (p, t) st' -> lookup rx (rule_getters (mk_orule 0 KNormal ce)) = Some gx ->
    exists c sp, t = NRule 0 (Some c) sp /\ spec_val rx ce c = Some (call_getter gx t).
  Proof.
    intros H Hg.
    destruct (try_parse_partial_call_getter_value 99 cg (inp_of_str [97; 120]%N) no_pred 40 0 (mk_orule 0 KNormal ce) rx gx p t st'
                ltac:(discriminate) eq_refl H Hg) as (c & sp & Ht & _ & Hv).
    exists c, sp. split; assumption.
  Qed.
End SlotExample.

(* r = { (a ~ b)? ~ (a | b ~ a)* ~ &b ~ PUSH(b)? ~ (b | a)? } on "abababb" (GetterProofs2.Example): the full structured values *)
Module Example3.
  Import Example.

  Example spec_values :
    match try_parse_partial xenv 40 0, getter xe ra, getter xe rb with
    | Ok (p, NRule 0 (Some c) _) _, Some ga, Some gb =>
        p = 7 /\
        spec_val ra xe c =
          Some (VTuple [VOpt (Some (VRef (na 0 1)));
                        VVec [VTuple [VOpt (Some (VRef (na 2 3))); VOpt None];
                              VTuple [VOpt None; VOpt (Some (VRef (na 4 5)))]];
                        VOpt None]) /\
        spec_val rb xe c =
          Some (VTuple [VOpt (Some (VRef (nb 1 2)));
                        VVec [VOpt None; VOpt (Some (VRef (nb 3 4)))];
                        VRef (nb 5 6);
                        VOpt (Some (VRef (nb 5 6)));
                        VOpt (Some (VRef (nb 6 7)))]) /\
        spec_val ra xe c = Some (eval_g ga c) /\
        spec_val rb xe c = Some (eval_g gb c) /\
        spec_val (IdRule 3) xe c = None
    | _, _, _ => False
    end.
  Proof. vm_compute. repeat split. Qed.
End Example3.

Print Assumptions getter_value_spec_eq.
Print Assumptions getter_value_spec.
Print Assumptions getter_value_spec_none.
Print Assumptions spec_val_typed.
Print Assumptions spec_val_none_iff.
Print Assumptions spec_val_flatten.
Print Assumptions parsed_rule_getter_value.
Print Assumptions parsed_rule_getter_value_none.
Print Assumptions try_parse_partial_call_getter_value.
