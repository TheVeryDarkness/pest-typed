(* C12: the model of position.rs (Model/Lines.v) computes the declarative spec (Model/LinesSpec.v)
   for every valid UTF-8 string and every character boundary. *)
From Coq Require Import List NArith Arith Bool Lia.
From PT Require Import Model.Base Model.Lines Model.LinesSpec Proofs.ListFacts Proofs.BaseFacts Proofs.LinesUtf8.
Import ListNotations.
Local Open Scope N_scope.

Lemma take_drop_nolf l : take_nolf l ++ drop_nolf l = l.
Proof.
  induction l as [|c r IH]; [reflexivity|].
  cbn [take_nolf drop_nolf]. destruct (is_lf c); [reflexivity|]. cbn [app]. rewrite IH. reflexivity.
Qed.

Lemma upto_after_last_lf cs : upto_last_lf cs ++ after_last_lf cs = cs.
Proof.
  unfold upto_last_lf, after_last_lf. rewrite <- rev_app_distr, take_drop_nolf. apply rev_involutive.
Qed.

Lemma upto_after_lf cs : upto_lf cs ++ after_lf cs = cs.
Proof.
  induction cs as [|c r IH]; [reflexivity|].
  cbn [upto_lf after_lf]. destruct (is_lf c); [reflexivity|]. cbn [app]. rewrite IH. reflexivity.
Qed.

Lemma after_last_lf_snoc a x :
  after_last_lf (a ++ [x]) = if is_lf x then [] else after_last_lf a ++ [x].
Proof.
  unfold after_last_lf. rewrite rev_unit. cbn [take_nolf].
  destruct (is_lf x); reflexivity.
Qed.

Lemma upto_last_lf_snoc a x :
  upto_last_lf (a ++ [x]) = if is_lf x then a ++ [x] else upto_last_lf a.
Proof.
  unfold upto_last_lf. rewrite rev_unit. cbn [drop_nolf].
  destruct (is_lf x); [|reflexivity]. cbn [rev]. rewrite rev_involutive. reflexivity.
Qed.

Lemma count_lf_app a b : count_lf (a ++ b) = (count_lf a + count_lf b)%nat.
Proof. unfold count_lf. rewrite filter_app, app_length. reflexivity. Qed.

Lemma len_utf8_lf c : is_lf c = true -> len_utf8 c = 1%nat.
Proof. intros ->%N.eqb_eq. reflexivity. Qed.

Lemma slice_middle u m r : valid_str (u ++ m ++ r) ->
  slice_checked (encode (u ++ m ++ r)) (length (encode u)) (length (encode u) + length (encode m)) =
  MOk (encode m).
Proof.
  intros Hv. rewrite slice_checked_opt, (slice_opt_mid u m r Hv). reflexivity.
Qed.

Lemma slice_chars cs i j : valid_str cs -> (i <= j)%nat ->
  slice_checked (encode cs) (boff cs i) (boff cs j) = MOk (encode (firstn (j - i) (skipn i cs))).
Proof.
  intros Hv Hij. unfold boff.
  pose proof (slice_middle (firstn i cs) (firstn (j - i) (skipn i cs)) (skipn j cs)) as H.
  rewrite <- encode_length_app, app_assoc, <- firstn_plus, (Nat.add_comm i), (Nat.sub_add i j Hij),
    firstn_skipn in H.
  exact (H Hv).
Qed.

Fixpoint lc_fold (cs : list char) (line col : nat) : nat * nat :=
  match cs with
  | [] => (line, col)
  | c :: r => if is_lf c then lc_fold r (line + 1) 1 else lc_fold r line (col + 1)
  end.

Lemma lc_fold_app a b line col :
  lc_fold (a ++ b) line col = lc_fold b (fst (lc_fold a line col)) (snd (lc_fold a line col)).
Proof.
  revert line col. induction a as [|c r IH]; intros line col; [reflexivity|].
  cbn [app lc_fold]. destruct (is_lf c); apply IH.
Qed.

Lemma lc_fold_spec pre :
  lc_fold pre 1 1 = (1 + count_lf pre, 1 + length (after_last_lf pre))%nat.
Proof.
  induction pre as [|x a IH] using rev_ind; [reflexivity|].
  rewrite lc_fold_app, IH. cbn [fst snd lc_fold].
  rewrite count_lf_app, after_last_lf_snoc.
  replace (count_lf [x]) with (if is_lf x then 1 else 0)%nat
    by (unfold count_lf; cbn [filter]; destruct (is_lf x); reflexivity).
  destruct (is_lf x).
  - rewrite Nat.add_assoc. reflexivity.
  - rewrite app_length, Nat.add_0_r, Nat.add_assoc. reflexivity.
Qed.

(* One iteration per arm, stated with [n] the bytes left after it: the `pos == 1` test of the
   CR LF arm then sees `S (S n)`, so the arm behind it (trap) is never taken. *)
Lemma lc_step_lf trap f rest n line col :
  lc_loop trap (S f) (LF :: rest) (S n) line col = lc_loop trap f rest n (line + 1) 1.
Proof. cbn. rewrite Nat.sub_0_r. reflexivity. Qed.

Lemma lc_step_cr_lf trap f rest n line col :
  lc_loop trap (S f) (CR :: LF :: rest) (S (S n)) line col = lc_loop trap f rest n (line + 1) 1.
Proof. cbn. rewrite Nat.sub_0_r. reflexivity. Qed.

Lemma lc_step_cr trap f rest n line col :
  match dec1 rest with Some (c2, _) => c2 =? LF | None => false end = false ->
  lc_loop trap (S f) (CR :: rest) (S n) line col = lc_loop trap f rest n line (col + 1).
Proof.
  intros H. cbn [lc_loop Nat.eqb]. change (dec1 (CR :: rest)) with (Some (CR, 1%nat)).
  change (CR =? CR) with true. cbn [skipn Nat.sub]. rewrite Nat.sub_0_r.
  destruct (dec1 rest) as [[c2 l2]|]; [rewrite H|]; reflexivity.
Qed.

Lemma lc_step_other trap f c rest n line col : valid_char c = true -> c <> CR -> c <> LF ->
  lc_loop trap (S f) (enc c ++ rest) (len_utf8 c + n) line col = lc_loop trap f rest n line (col + 1).
Proof.
  intros Hc Hcr%N.eqb_neq Hlf%N.eqb_neq. cbn [lc_loop].
  rewrite (dec1_enc c rest Hc), skipn_enc, Hcr, Hlf.
  pose proof (len_utf8_pos c).
  destruct (Nat.eqb_spec (len_utf8 c + n) 0); [lia|].
  destruct (Nat.ltb_spec (len_utf8 c + n) (len_utf8 c)); [lia|].
  rewrite Nat.add_comm, Nat.add_sub. reflexivity.
Qed.

Lemma lc_loop_fold trap : forall fuel pre line col,
  valid_str pre -> (length (encode pre) <= fuel)%nat ->
  lc_loop trap fuel (encode pre) (length (encode pre)) line col = LOk (lc_fold pre line col).
Proof.
  induction fuel as [|f IH]; intros pre line col Hv Hf.
  - rewrite (encode_nil_inv pre) by lia. reflexivity.
  - destruct pre as [|c r]; [reflexivity|].
    inversion Hv as [|? ? Hc Hr]; subst.
    rewrite encode_length_cons in Hf. pose proof (len_utf8_pos c).
    destruct (N.eqb_spec c CR) as [->|Ncr]; [|destruct (N.eqb_spec c LF) as [->|Nlf]].
    + destruct r as [|c2 r2];
        [|inversion Hr as [|? ? Hc2 Hr2]; subst; destruct (N.eqb_spec c2 LF) as [->|Nlf]].
      * rewrite (lc_step_cr trap f (encode []) (length (encode []))) by reflexivity.
        apply (IH []); [exact Hr|cbn; lia].
      * rewrite (lc_step_cr_lf trap f (encode r2) (length (encode r2))).
        apply (IH r2); [exact Hr2|]. rewrite encode_length_cons in Hf. cbn in Hf. lia.
      * rewrite (lc_step_cr trap f (encode (c2 :: r2)) (length (encode (c2 :: r2)))).
        -- apply (IH (c2 :: r2)); [exact Hr|lia].
        -- rewrite encode_cons, (dec1_enc c2 _ Hc2). apply N.eqb_neq. exact Nlf.
    + rewrite (lc_step_lf trap f (encode r) (length (encode r))). apply (IH r); [exact Hr|lia].
    + rewrite encode_length_cons, encode_cons, (lc_step_other trap f c _ _ _ _ Hc Ncr Nlf).
      cbn [lc_fold]. apply N.eqb_neq in Nlf. unfold is_lf. rewrite Nlf. apply (IH r); [exact Hr|lia].
Qed.

Theorem line_col_correct : forall cs k trap, valid_str cs ->
  line_col_t trap (encode cs) (boff cs k) = LOk (line_col_spec cs k).
Proof.
  intros cs k trap Hv. unfold line_col_t.
  rewrite (proj2 (Nat.ltb_ge _ _) (boff_le cs k)).
  change 0%nat with (boff cs 0). rewrite (slice_chars cs 0 k Hv (Nat.le_0_l k)), Nat.sub_0_r.
  cbn [skipn]. unfold boff at 1 2.
  rewrite lc_loop_fold by (apply Forall_firstn, Hv || apply le_n).
  rewrite lc_fold_spec. reflexivity.
Qed.

(* `C12_crlf_is_one_break` and `C12_lone_cr_is_a_column` are this at [CR; LF] and [CR] *)
Lemma line_col_spec_app pre t :
  line_col_spec (pre ++ t) (length pre + length t) =
  lc_fold t (fst (line_col_spec pre (length pre))) (snd (line_col_spec pre (length pre))).
Proof.
  unfold line_col_spec. rewrite <- app_length, !firstn_all, <- !lc_fold_spec. apply lc_fold_app.
Qed.

Lemma skip_while_all {A} (f : A -> bool) a b :
  Forall (fun x => f x = true) a -> skip_while f (a ++ b) = skip_while f b.
Proof.
  induction a as [|x r IH]; intros H; [reflexivity|].
  inversion H as [|? ? Hx Hr]; subst. cbn [app skip_while]. rewrite Hx. apply IH. exact Hr.
Qed.

Lemma skip_while_none {A} (f : A -> bool) l :
  Forall (fun x => f x = false) l -> skip_while f l = l.
Proof.
  destruct l as [|x r]; intros H; [reflexivity|].
  inversion H as [|? ? Hx _]; subst. cbn [skip_while]. rewrite Hx. reflexivity.
Qed.

(* the scans also give the answer of the `input.is_empty()` early return *)
Lemma fls_unfold s pos :
  find_line_start s pos =
  match find (fun ic => is_lf (snd ic))
             (skip_while (fun ic => (pos <=? fst ic)%nat) (rev (char_indices s))) with
  | Some (i, _) => (i + 1)%nat
  | None => 0%nat
  end.
Proof. destruct s; reflexivity. Qed.

Lemma fle_unfold s pos :
  find_line_end s pos =
  if (pos =? length s - 1)%nat then length s
  else match find (fun ic => is_lf (snd ic))
                  (skip_while (fun ic => (fst ic <? pos)%nat) (char_indices s)) with
       | Some (i, _) => (i + 1)%nat
       | None => length s
       end.
Proof. destruct s; [destruct pos; reflexivity|reflexivity]. Qed.

Lemma find_rev_cidx pre :
  match find (fun ic => is_lf (snd ic)) (rev (cidx pre 0)) with
  | Some (i, _) => (i + 1)%nat
  | None => 0%nat
  end = length (encode (upto_last_lf pre)).
Proof.
  induction pre as [|x a IH] using rev_ind; [reflexivity|].
  rewrite cidx_app, rev_app_distr. cbn [cidx rev app find snd].
  rewrite upto_last_lf_snoc.
  destruct (is_lf x) eqn:Hx; [|exact IH].
  rewrite encode_length_app, encode_length_cons, (len_utf8_lf x Hx). reflexivity.
Qed.

Lemma find_cidx post : forall p d, d = (p + length (encode post))%nat ->
  match find (fun ic => is_lf (snd ic)) (cidx post p) with
  | Some (i, _) => (i + 1)%nat
  | None => d
  end = (p + length (encode (upto_lf post)))%nat.
Proof.
  induction post as [|c r IH]; intros p d ->; [reflexivity|].
  cbn [cidx find upto_lf snd]. destruct (is_lf c) eqn:Hc; rewrite !encode_length_cons.
  - rewrite (len_utf8_lf c Hc). reflexivity.
  - rewrite (IH (p + len_utf8 c)%nat _ (Nat.add_assoc _ _ _)). apply eq_sym, Nat.add_assoc.
Qed.

Lemma find_line_start_spec pre post : valid_str (pre ++ post) ->
  find_line_start (encode (pre ++ post)) (length (encode pre)) = length (encode (upto_last_lf pre)).
Proof.
  intros Hv. rewrite fls_unfold, (char_indices_encode _ Hv), cidx_app, rev_app_distr.
  rewrite skip_while_all.
  - rewrite skip_while_none; [apply find_rev_cidx|].
    apply Forall_rev. eapply Forall_impl; [|apply (cidx_lt pre 0)].
    cbn. intros x Hx. apply Nat.leb_gt. lia.
  - apply Forall_rev. eapply Forall_impl; [|apply cidx_ge].
    cbn. intros x Hx. apply Nat.leb_le. lia.
Qed.

Lemma encode_length_upto_after post :
  length (encode post) = (length (encode (upto_lf post)) + length (encode (after_lf post)))%nat.
Proof. rewrite <- encode_length_app, upto_after_lf. reflexivity. Qed.

Lemma find_line_end_spec pre post : valid_str (pre ++ post) ->
  find_line_end (encode (pre ++ post)) (length (encode pre)) =
  (length (encode pre) + length (encode (upto_lf post)))%nat.
Proof.
  intros Hv. rewrite fle_unfold. rewrite encode_length_app.
  destruct (Nat.eqb_spec (length (encode pre)) (length (encode pre) + length (encode post) - 1)) as [E|_].
  - (* the `pos == len - 1` shortcut: at most one byte, so one character, is left *)
    destruct post as [|c r]; [reflexivity|].
    rewrite encode_length_cons in E. pose proof (len_utf8_pos c).
    rewrite (encode_nil_inv r) by lia.
    cbn [upto_lf]. destruct (is_lf c); reflexivity.
  - rewrite (char_indices_encode _ Hv), cidx_app. cbn [Nat.add].
    rewrite skip_while_all.
    + rewrite skip_while_none; [apply find_cidx; reflexivity|].
      eapply Forall_impl; [|apply cidx_ge]. cbn. intros x Hx. apply Nat.ltb_ge. exact Hx.
    + eapply Forall_impl; [|apply (cidx_lt pre 0)]. cbn. intros x Hx. apply Nat.ltb_lt. lia.
Qed.

Lemma line_slice pre post : valid_str (pre ++ post) ->
  slice_checked (encode (pre ++ post)) (length (encode (upto_last_lf pre)))
                (length (encode pre) + length (encode (upto_lf post))) =
  MOk (encode (after_last_lf pre ++ upto_lf post)).
Proof.
  intros Hv.
  pose proof (slice_middle (upto_last_lf pre) (after_last_lf pre ++ upto_lf post) (after_lf post)) as H.
  rewrite (encode_length_app (after_last_lf pre)), Nat.add_assoc, <- encode_length_app in H.
  rewrite <- !app_assoc, upto_after_lf, app_assoc, upto_after_last_lf in H.
  exact (H Hv).
Qed.

Lemma line_of_at pre post : valid_str (pre ++ post) ->
  line_of (encode (pre ++ post)) (length (encode pre)) =
  LOk (encode (after_last_lf pre ++ upto_lf post)).
Proof.
  intros Hv. unfold line_of.
  rewrite (proj2 (Nat.ltb_ge _ _)) by (rewrite encode_length_app; apply Nat.le_add_r).
  rewrite (find_line_start_spec _ _ Hv), (find_line_end_spec _ _ Hv), (line_slice _ _ Hv).
  reflexivity.
Qed.

Theorem line_of_correct : forall cs k, valid_str cs ->
  line_of (encode cs) (boff cs k) = LOk (encode (line_of_spec cs k)).
Proof.
  intros cs k Hv. pose proof (line_of_at (firstn k cs) (skipn k cs)) as H.
  rewrite firstn_skipn in H. exact (H Hv).
Qed.

Lemma pos_new_spec s p :
  pos_new s p = if (p <=? length s)%nat && is_boundary s p then Some p else None.
Proof.
  unfold pos_new, slice_opt. rewrite is_boundary_length, Nat.leb_refl, !andb_true_r.
  destruct ((p <=? length s)%nat && is_boundary s p); reflexivity.
Qed.

Lemma pos_new_valid s p : (p <= length s)%nat -> is_boundary s p = true -> pos_new s p = Some p.
Proof. intros H1%Nat.leb_le H2. rewrite pos_new_spec, H1, H2. reflexivity. Qed.

Theorem pos_new_boundaries : forall cs p, valid_str cs ->
  (pos_new (encode cs) p = Some p <-> exists k, (k <= length cs)%nat /\ p = boff cs k) /\
  (pos_new (encode cs) p = Some p \/ pos_new (encode cs) p = None).
Proof.
  intros cs p Hv. rewrite pos_new_spec. split.
  - split.
    + destruct (Nat.leb_spec p (length (encode cs))) as [Hle|]; [|discriminate].
      destruct (is_boundary (encode cs) p) eqn:Hb; [|discriminate].
      intros _. apply boundary_is_prefix; assumption.
    + intros (k & _ & ->).
      rewrite (boff_boundary cs k Hv), (proj2 (Nat.leb_le _ _) (boff_le cs k)). reflexivity.
  - destruct ((p <=? length (encode cs))%nat && is_boundary (encode cs) p); [left|right]; reflexivity.
Qed.
