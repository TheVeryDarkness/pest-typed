(* UTF-8 facts: decoding an encoded character, lengths, boundaries, and `char_indices` of an encoded
   character list. *)
From Coq Require Import List NArith Arith Bool Lia.
From PT Require Import Model.Base Model.Lines Model.LinesSpec Proofs.ListFacts.
Import ListNotations.
Local Open Scope N_scope.

Lemma len_utf8_range c : (1 <= len_utf8 c <= 4)%nat.
Proof. unfold len_utf8. repeat (destruct (_ <? _); [lia|]). lia. Qed.

Lemma len_utf8_pos c : (1 <= len_utf8 c)%nat.
Proof. apply len_utf8_range. Qed.

Lemma len_utf8_le4 c : (len_utf8 c <= 4)%nat.
Proof. apply len_utf8_range. Qed.

Lemma enc_length c : length (enc c) = len_utf8 c.
Proof. unfold enc, len_utf8. repeat (destruct (_ <? _); [reflexivity|]). reflexivity. Qed.

(* A byte [k + q] of an encoding is a tag [k] plus a payload [q] below the next tag.  The class tests
   of [dec1] and [is_cont] compare it with tags, and [dec1] takes the tag off again. *)
Lemma tag_ge k q m : m <= k -> (k + q <? m) = false.
Proof. intros H. apply N.ltb_ge. apply (N.le_trans _ k); [exact H|apply N.le_add_r]. Qed.

Lemma tag_lt k q d m : q < d -> k + d <= m -> (k + q <? m) = true.
Proof.
  intros H1 H2. apply N.ltb_lt. apply (N.lt_le_trans _ (k + d)); [apply N.add_lt_mono_l; exact H1|exact H2].
Qed.

Lemma untag k q : k + q - k = q.
Proof. rewrite N.add_comm. apply N.add_sub. Qed.

Lemma digits64 c : c / 64 * 64 + c mod 64 = c.
Proof. rewrite N.mul_comm. symmetry. apply N.div_mod. discriminate. Qed.

Lemma is_cont_tag k q : 192 <= k -> is_cont (k + q) = false.
Proof. intros H. unfold is_cont. rewrite (tag_ge k q 192 H). apply andb_false_r. Qed.

Lemma is_cont_mod64 c : is_cont (128 + c mod 64) = true.
Proof.
  unfold is_cont. rewrite (tag_lt 128 (c mod 64) 64 192); [|apply N.mod_lt; discriminate|discriminate].
  rewrite andb_true_r. apply N.leb_le, N.le_add_r.
Qed.

Lemma dec1_enc c r : valid_char c = true -> dec1 (enc c ++ r) = Some (c, len_utf8 c).
Proof.
  (* the hypothesis is not used: a [byte] is any [N], so a surrogate or a [c] beyond U+10FFFF makes the
     round trip as well *)
  intros _. unfold enc, len_utf8.
  destruct (c <? 128) eqn:H1; [cbn [app dec1]; rewrite H1; reflexivity|].
  destruct (N.ltb_spec c 2048) as [H2|H2]; [|destruct (N.ltb_spec c 65536) as [H3|H3]]; cbn [app dec1].
  - assert (Hq : c / 64 < 32) by (apply N.div_lt_upper_bound; [discriminate|exact H2]).
    rewrite (tag_ge 192 _ 128), (tag_lt 192 _ 32 224 Hq), !untag, digits64 by discriminate.
    reflexivity.
  - assert (Hq : c / 4096 < 16) by (apply N.div_lt_upper_bound; [discriminate|exact H3]).
    rewrite (tag_ge 224 _ 128), (tag_ge 224 _ 224), (tag_lt 224 _ 16 240 Hq), !untag by discriminate.
    change 4096 with (64 * 64). rewrite <- N.div_div, N.mul_assoc, <- N.mul_add_distr_r, !digits64 by discriminate.
    reflexivity.
  - rewrite (tag_ge 240 _ 128), (tag_ge 240 _ 224), (tag_ge 240 _ 240), !untag by discriminate.
    change 262144 with (4096 * 64). change 4096 with (64 * 64).
    rewrite <- !N.div_div, !N.mul_assoc, <- !N.mul_add_distr_r, !digits64 by discriminate.
    reflexivity.
Qed.

Lemma enc_shape c : exists b t, enc c = b :: t /\ is_cont b = false /\ Forall (fun x => is_cont x = true) t.
Proof.
  unfold enc. destruct (N.ltb_spec c 128) as [H1|_].
  - exists c, []. repeat split; [|constructor]. unfold is_cont. apply N.leb_gt in H1. rewrite H1. reflexivity.
  - repeat destruct (_ <? _); eexists _, _; (split; [reflexivity|]);
      (split; [apply is_cont_tag; discriminate|repeat constructor; apply is_cont_mod64]).
Qed.

Lemma encode_app a b : encode (a ++ b) = encode a ++ encode b.
Proof. unfold encode. apply flat_map_app. Qed.

Lemma encode_cons c r : encode (c :: r) = enc c ++ encode r.
Proof. reflexivity. Qed.

Lemma encode_length_app a b : length (encode (a ++ b)) = (length (encode a) + length (encode b))%nat.
Proof. rewrite encode_app, app_length. reflexivity. Qed.

Lemma encode_length_cons c r : length (encode (c :: r)) = (len_utf8 c + length (encode r))%nat.
Proof. rewrite encode_cons, app_length, enc_length. reflexivity. Qed.

Lemma encode_length_ge cs : (length cs <= length (encode cs))%nat.
Proof.
  induction cs as [|c r IH]; [apply le_n|].
  rewrite encode_length_cons. exact (Nat.add_le_mono 1 _ _ _ (len_utf8_pos c) IH).
Qed.

Lemma encode_nil_inv cs : length (encode cs) = 0%nat -> cs = [].
Proof.
  destruct cs as [|c r]; [reflexivity|]. rewrite encode_length_cons. intros [H _]%Nat.eq_add_0.
  pose proof (len_utf8_pos c) as Hp. rewrite H in Hp. inversion Hp.
Qed.

Lemma skipn_enc c r : skipn (len_utf8 c) (enc c ++ r) = r.
Proof. rewrite <- enc_length. apply skipn_length_app. Qed.

Lemma valid_app a b : valid_str (a ++ b) <-> valid_str a /\ valid_str b.
Proof. unfold valid_str. apply Forall_app. Qed.

Lemma boundary_at_prefix a b : valid_str (a ++ b) ->
  is_boundary (encode (a ++ b)) (length (encode a)) = true.
Proof.
  intros _. unfold is_boundary.
  destruct (Nat.eqb_spec (length (encode a)) 0) as [H0|H0]; [reflexivity|].
  cbn [orb]. rewrite encode_app.
  rewrite nth_error_app2, Nat.sub_diag by apply le_n.
  destruct b as [|c r].
  - cbn. rewrite app_nil_r. apply Nat.eqb_refl.
  - destruct (enc_shape c) as (x & t & He & Hx & _).
    rewrite encode_cons, He. cbn. rewrite Hx. reflexivity.
Qed.

Lemma boundary_inside a c b j : valid_str (a ++ c :: b) ->
  (0 < j < len_utf8 c)%nat ->
  is_boundary (encode (a ++ c :: b)) (length (encode a) + j) = false.
Proof.
  intros _ Hj. unfold is_boundary.
  destruct (Nat.eqb_spec (length (encode a) + j) 0) as [H0|H0]; [lia|].
  cbn [orb]. rewrite encode_app, nth_error_app2 by lia.
  replace (length (encode a) + j - length (encode a))%nat with j by lia.
  destruct (enc_shape c) as (x & t & He & _ & Ht).
  rewrite encode_cons, He.
  pose proof (enc_length c) as Hl. rewrite He in Hl. cbn [length] in Hl.
  destruct j as [|j']; [lia|]. cbn [app nth_error].
  rewrite nth_error_app1 by lia.
  destruct (nth_error t j') as [y|] eqn:Hn.
  - rewrite Forall_forall in Ht. rewrite (Ht y); [reflexivity|]. eapply nth_error_In; eassumption.
  - apply nth_error_None in Hn. lia.
Qed.

Lemma boundary_mid a m b : valid_str (a ++ m ++ b) ->
  is_boundary (encode (a ++ m ++ b)) (length (encode a) + length (encode m)) = true.
Proof.
  intros Hv. rewrite app_assoc in *. rewrite <- encode_length_app. apply boundary_at_prefix. exact Hv.
Qed.

Lemma slice_opt_mid a m b : valid_str (a ++ m ++ b) ->
  slice_opt (encode (a ++ m ++ b)) (length (encode a)) (length (encode a) + length (encode m)) = Some (encode m).
Proof.
  intros Hv. unfold slice_opt.
  rewrite (boundary_at_prefix a (m ++ b) Hv), (boundary_mid a m b Hv).
  rewrite (proj2 (Nat.leb_le _ _) (Nat.le_add_r _ _)).
  rewrite (proj2 (Nat.leb_le _ (length (encode (a ++ m ++ b))))).
  - cbn [andb]. rewrite Nat.add_comm, Nat.add_sub, !encode_app, skipn_length_app, firstn_length_app. reflexivity.
  - rewrite !encode_length_app, Nat.add_assoc. apply Nat.le_add_r.
Qed.

Lemma boundary_is_prefix cs : valid_str cs -> forall p,
  (p <= length (encode cs))%nat -> is_boundary (encode cs) p = true ->
  exists k, (k <= length cs)%nat /\ p = boff cs k.
Proof.
  intros Hv.
  assert (G : forall a b, cs = a ++ b -> forall p, (length (encode a) <= p <= length (encode cs))%nat ->
              is_boundary (encode cs) p = true ->
              exists k, (k <= length cs)%nat /\ p = boff cs k).
  { intros a b. revert a. induction b as [|c r IH]; intros a Hcs p Hp Hb.
    - subst cs. rewrite app_nil_r in *. exists (length a). split; [lia|].
      unfold boff. rewrite firstn_all. lia.
    - destruct (Nat.eq_dec p (length (encode a))) as [He|Hne].
      + exists (length a). subst cs. split; [rewrite app_length; lia|].
        unfold boff. rewrite firstn_app, Nat.sub_diag, firstn_all. cbn [firstn]. rewrite app_nil_r. exact He.
      + destruct (Nat.lt_ge_cases p (length (encode a) + len_utf8 c)) as [Hlt|Hge].
        * exfalso. subst cs.
          replace p with (length (encode a) + (p - length (encode a)))%nat in Hb by lia.
          rewrite boundary_inside in Hb; [discriminate|assumption|lia].
        * apply (IH (a ++ [c])).
          -- rewrite <- app_assoc. exact Hcs.
          -- rewrite encode_length_app, encode_length_cons. cbn. lia.
          -- exact Hb. }
  intros p Hp Hb. apply (G [] cs); [reflexivity|cbn; lia|exact Hb].
Qed.

Lemma boff_le cs k : (boff cs k <= length (encode cs))%nat.
Proof.
  unfold boff. rewrite <- (firstn_skipn k cs) at 2. rewrite encode_length_app. apply Nat.le_add_r.
Qed.

Lemma boff_boundary cs k : valid_str cs -> is_boundary (encode cs) (boff cs k) = true.
Proof.
  intros Hv. unfold boff. rewrite <- (firstn_skipn k cs) at 1.
  apply boundary_at_prefix. rewrite firstn_skipn. exact Hv.
Qed.

Lemma boff_mono cs i j : (i <= j)%nat -> (boff cs i <= boff cs j)%nat.
Proof.
  intros H. apply Nat.le_exists_sub in H as (d & -> & _). unfold boff.
  rewrite Nat.add_comm, firstn_plus, encode_length_app. apply Nat.le_add_r.
Qed.

(* `char_indices` on the characters themselves *)
Fixpoint cidx (cs : list char) (i : nat) : list (nat * char) :=
  match cs with
  | [] => []
  | c :: r => (i, c) :: cidx r (i + len_utf8 c)
  end.

Lemma ci_from_encode cs : valid_str cs -> forall fuel i,
  (length (encode cs) <= fuel)%nat -> ci_from fuel (encode cs) i = cidx cs i.
Proof.
  induction cs as [|c r IH]; intros Hv fuel i Hf.
  - destruct fuel; reflexivity.
  - inversion Hv as [|? ? Hc Hr]; subst.
    rewrite encode_length_cons in Hf. pose proof (proj1 (Nat.add_le_mono_r _ _ (length (encode r))) (len_utf8_pos c)) as Hp.
    destruct fuel as [|f]; [destruct (Nat.nle_succ_0 _ (Nat.le_trans _ _ _ Hp Hf))|].
    cbn [ci_from cidx]. rewrite encode_cons, (dec1_enc c _ Hc), skipn_enc.
    f_equal. apply IH; [exact Hr|exact (le_S_n _ _ (Nat.le_trans _ _ _ Hp Hf))].
Qed.

Lemma char_indices_encode cs : valid_str cs -> char_indices (encode cs) = cidx cs 0.
Proof. intros Hv. unfold char_indices. apply ci_from_encode; [exact Hv|apply le_n]. Qed.

Lemma cidx_app a b i : cidx (a ++ b) i = cidx a i ++ cidx b (i + length (encode a)).
Proof.
  revert i. induction a as [|c r IH]; intros i.
  - cbn. rewrite Nat.add_0_r. reflexivity.
  - cbn [app cidx]. rewrite IH, encode_length_cons, Nat.add_assoc. reflexivity.
Qed.

Lemma cidx_lt a i : Forall (fun ic => (i <= fst ic < i + length (encode a))%nat) (cidx a i).
Proof.
  revert i. induction a as [|c r IH]; intros i; [constructor|].
  cbn [cidx]. rewrite encode_length_cons. constructor.
  - split; [apply le_n|apply Nat.lt_add_pos_r, Nat.add_pos_l, len_utf8_pos].
  - eapply Forall_impl; [|apply IH]. intros x [H1 H2]. rewrite Nat.add_assoc.
    exact (conj (Nat.le_trans _ _ _ (Nat.le_add_r _ _) H1) H2).
Qed.

Lemma cidx_ge a i : Forall (fun ic => (i <= fst ic)%nat) (cidx a i).
Proof. eapply Forall_impl; [|apply cidx_lt]. intros x Hx. exact (proj1 Hx). Qed.
