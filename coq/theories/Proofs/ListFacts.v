(* Facts about [firstn], [skipn], [nth_error], [Forall], [NoDup] and [filter] that Coq's List library
   does not have. *)
From Coq Require Import List Arith.
Import ListNotations.

Lemma Forall_firstn {A} (Q : A -> Prop) n l : Forall Q l -> Forall Q (firstn n l).
Proof. intros H. rewrite <- (firstn_skipn n l) in H. apply Forall_app in H. apply H. Qed.

Lemma Forall_skipn {A} (Q : A -> Prop) n l : Forall Q l -> Forall Q (skipn n l).
Proof. intros H. rewrite <- (firstn_skipn n l) in H. apply Forall_app in H. apply H. Qed.

Lemma firstn_length_app {A} (p q : list A) : firstn (length p) (p ++ q) = p.
Proof. rewrite firstn_app, Nat.sub_diag, firstn_all. apply app_nil_r. Qed.

Lemma skipn_length_app {A} (p q : list A) : skipn (length p) (p ++ q) = q.
Proof. rewrite skipn_app, Nat.sub_diag, skipn_all. reflexivity. Qed.

Lemma skipn_skipn {A} x y (l : list A) : skipn x (skipn y l) = skipn (x + y) l.
Proof.
  revert l. induction y as [|y IH]; intros l.
  - rewrite Nat.add_0_r. reflexivity.
  - rewrite Nat.add_succ_r. destruct l as [|h l]; [rewrite !skipn_nil; reflexivity|apply IH].
Qed.

Lemma firstn_plus {A} (l : list A) : forall i d, firstn (i + d) l = firstn i l ++ firstn d (skipn i l).
Proof.
  induction l as [|x r IH]; intros i d.
  - rewrite skipn_nil, !firstn_nil. reflexivity.
  - destruct i as [|i]; [reflexivity|]. cbn [Nat.add firstn skipn app]. rewrite IH. reflexivity.
Qed.

Lemma nth_error_firstn_lt {A} (l : list A) : forall n k, k < n -> nth_error (firstn n l) k = nth_error l k.
Proof.
  induction l as [|x r IH]; intros n k H.
  - rewrite firstn_nil. reflexivity.
  - destruct n as [|n]; [destruct (Nat.nlt_0_r _ H)|]. destruct k as [|k]; [reflexivity|].
    apply IH, Nat.succ_lt_mono, H.
Qed.

Lemma nth_error_skipn_add {A} (l : list A) : forall a k, nth_error (skipn a l) k = nth_error l (a + k).
Proof.
  induction l as [|x r IH]; intros a k.
  - rewrite skipn_nil. destruct k, a; reflexivity.
  - destruct a as [|a]; [reflexivity|apply IH].
Qed.

Lemma skipn_nth_error {A} (l : list A) i :
  skipn i l = match nth_error l i with Some a => a :: skipn (S i) l | None => [] end.
Proof.
  revert i. induction l as [|a r IH]; intros [|i]; cbn [skipn nth_error]; try reflexivity.
  rewrite IH. destruct (nth_error r i); reflexivity.
Qed.

Lemma skipn_nth (A : Type) (d : A) (L : list A) : forall i, i < length L ->
  skipn i L = nth i L d :: skipn (S i) L.
Proof. intros i Hi. rewrite skipn_nth_error, (nth_error_nth' L d Hi). reflexivity. Qed.

Lemma firstn_S_nth (A : Type) (d : A) (l : list A) k : k < length l ->
  firstn (S k) l = firstn k l ++ [nth k l d].
Proof.
  intros Hk. rewrite <- Nat.add_1_r, firstn_plus, (skipn_nth A d l k Hk). reflexivity.
Qed.

(* the window [s, e) of a reversed list, in terms of the list itself *)
Lemma rev_window {A} (c : list A) s e : s <= e -> e <= length c ->
  firstn (e - s) (skipn s (rev c)) = rev (skipn (length c - e) (firstn (length c - s) c)).
Proof.
  intros Hse Hel. rewrite skipn_rev, firstn_rev, firstn_length_le by apply Nat.le_sub_l.
  rewrite <- Nat.sub_add_distr, (Nat.add_comm s), (Nat.sub_add _ _ Hse). reflexivity.
Qed.

Lemma NoDup_snoc {A} (l : list A) y : NoDup l -> ~ In y l -> NoDup (l ++ [y]).
Proof.
  intros Hl Hy. apply NoDup_rev in Hl. rewrite <- (rev_involutive (l ++ [y])), rev_app_distr.
  apply NoDup_rev. constructor; [rewrite <- in_rev; exact Hy|exact Hl].
Qed.

Lemma filter_none {A} (g : A -> bool) l : (forall x, In x l -> g x = false) -> filter g l = [].
Proof.
  induction l as [|x l IH]; intros H; [reflexivity|].
  cbn [filter]. rewrite (H x (or_introl eq_refl)). apply IH. intros y Hy. apply H. right. exact Hy.
Qed.
