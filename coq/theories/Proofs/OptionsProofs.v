(* C20: facts about the generator model w.r.t. options, and the raw (pest_optimizer = false) path. *)
From Coq Require Import List NArith Bool.
From PT Require Import Model.Base Model.Texpr Model.Sem Model.Ast Model.Translate Model.PegSpec Model.GenEnv.
From PT Require Import Proofs.PegSimBase.
Import ListNotations.

(* Model/GenEnv.env_of on the raw path (pest_optimizer = false): the skip and the rule entries of translate_raw *)
Definition lookup_rrule (rs : list rrule) (r : N) : option rrule :=
  find (fun d => (rr_name d =? r)%N) rs.

Definition env_of_raw (eoi : N) (g : rgrammar) (I : inp) (pred : N -> char -> bool) : env :=
  mk_env I
    (fun r =>
       if (r =? eoi)%N then mk_rdef None EmBoth TEoi
       else match lookup_rrule (rg_rules g) r with
            | Some d => rdef_of_rrule eoi d
            | None => mk_rdef None EmBoth TFail
            end)
    (skip_of (rg_ws g) (rg_comment g)) pred eoi true true true.

(* the optimized expression read back as a raw one: the optimizer's RestoreOnErr is dropped *)
Fixpoint raw_of (e : oexpr) : rexpr :=
  match e with
  | OStr s => RStr s
  | OInsens s => RInsens s
  | ORange lo hi => RRange lo hi
  | OIdent i => RIdent i
  | OPeekSlice a b => RPeekSlice a b
  | OPosPred e1 => RPosPred (raw_of e1)
  | ONegPred e1 => RNegPred (raw_of e1)
  | OSeq a b => RSeq (raw_of a) (raw_of b)
  | OChoice a b => RChoice (raw_of a) (raw_of b)
  | OOpt e1 => ROpt (raw_of e1)
  | ORep e1 => RRep (raw_of e1)
  | OSkip ss => RSkip ss
  | OPush e1 => RPush (raw_of e1)
  | ORestore e1 => raw_of e1
  end.

(* ORestore directly under a Seq / Choice spine element changes what `walk!` sees: exclude it on spines *)
Fixpoint no_restore_on_spine (e : oexpr) : bool :=
  match e with
  | OSeq a b => no_restore_on_spine a && (match b with ORestore _ => false | _ => true end) && no_restore_on_spine b
  | OChoice a b => no_restore_on_spine a && (match b with ORestore _ => false | _ => true end) && no_restore_on_spine b
  | OPosPred e1 | ONegPred e1 | OOpt e1 | ORep e1 | OPush e1 | ORestore e1 => no_restore_on_spine e1
  | _ => true
  end.

Definition not_restore (b : oexpr) : bool := match b with ORestore _ => false | _ => true end.

Lemma andb3 a b c : a && b && c = true -> a = true /\ b = true /\ c = true.
Proof. destruct a, b, c; intros H; try discriminate H. repeat split. Qed.

Section Spines.
  Variables (eoi : N) (k : sk).

  Definition rspine_seq := fix spine (x : rexpr) : list texpr :=
    match x with RSeq a' b' => rtr eoi k a' :: spine b' | _ => [rtr eoi k x] end.
  Definition rspine_cho := fix spine (x : rexpr) : list texpr :=
    match x with RChoice a' b' => rtr eoi k a' :: spine b' | _ => [rtr eoi k x] end.

  Lemma rtr_seq_eq a b : rtr eoi k (RSeq a b) = TSeq k (rtr eoi k a :: rspine_seq b).
  Proof. reflexivity. Qed.
  Lemma rtr_cho_eq a b : rtr eoi k (RChoice a b) = TChoice (rtr eoi k a :: rspine_cho b).
  Proof. reflexivity. Qed.

  (* the spine of an element that is not a Restore (which raw_of would see through) is read off its translation:
     the argument list of the TSeq if it is a further Seq, the translation itself otherwise *)
  Lemma raw_seq_spine x : not_restore x = true -> rtr eoi k (raw_of x) = tr eoi k x ->
    rspine_seq (raw_of x) = seq_spine eoi k x.
  Proof.
    intros Hn H. destruct x; try discriminate Hn; try exact (f_equal (fun t => [t]) H).
    cbn [raw_of] in H. rewrite rtr_seq_eq, tr_seq in H.
    exact (f_equal (fun t => match t with TSeq _ es => es | _ => [] end) H).
  Qed.

  Lemma raw_cho_spine x : not_restore x = true -> rtr eoi k (raw_of x) = tr eoi k x ->
    rspine_cho (raw_of x) = choice_spine eoi k x.
  Proof.
    intros Hn H. destruct x; try discriminate Hn; try exact (f_equal (fun t => [t]) H).
    cbn [raw_of] in H. rewrite rtr_cho_eq, tr_choice in H.
    exact (f_equal (fun t => match t with TChoice es => es | _ => [] end) H).
  Qed.
End Spines.

(* where the optimizer changed nothing but added RestoreOnErr, both translations produce the same type *)
Theorem raw_same_when_unchanged eoi k e :
  no_restore_on_spine e = true -> rtr eoi k (raw_of e) = tr eoi k e.
Proof.
  induction e; intros Hr; try reflexivity; try (cbn [raw_of rtr tr]; f_equal; exact (IHe Hr)).
  - destruct (andb3 _ _ _ Hr) as (H1 & Hn & H2). cbn [raw_of].
    rewrite rtr_seq_eq, tr_seq, (IHe1 H1), (raw_seq_spine _ _ e2 Hn (IHe2 H2)). reflexivity.
  - destruct (andb3 _ _ _ Hr) as (H1 & Hn & H2). cbn [raw_of].
    rewrite rtr_cho_eq, tr_choice, (IHe1 H1), (raw_cho_spine _ _ e2 Hn (IHe2 H2)). reflexivity.
Qed.

(* the known finding F6 on the faithful model: e = { "x"+ }, WHITESPACE = _{ " " }, input "x  y" *)
Definition g_opt : ogrammar :=
  mk_ogrammar
    [ mk_orule 1 KNormal (OSeq (OStr [120%N]) (ORep (OStr [120%N])));
      mk_orule 2 KSilent (OStr [32%N]) ]
    (Some 2%N) None.

Definition g_raw : rgrammar :=
  mk_rgrammar
    [ mk_rrule 1 KNormal (RRepOnce (RStr [120%N]));
      mk_rrule 2 KSilent (RStr [32%N]) ]
    (Some 2%N) None.

Definition in_f6 : list byte := [120; 32; 32; 121]%N.
Definition nopred : N -> char -> bool := fun _ _ => false.

Lemma optimizer_changes_offset :
  (match tparse (env_of 0 g_opt (inp_of_str in_f6) nopred) 30 true (TRule 1 SkOn) 0 st0 with
   | Ok (p, _) _ => p = 3 | _ => False end) /\
  (match tparse (env_of_raw 0 g_raw (inp_of_str in_f6) nopred) 30 true (TRule 1 SkOn) 0 st0 with
   | Ok (p, _) _ => p = 1 | _ => False end) /\
  (match peg_entry (penv_of 0 g_opt (inp_of_str in_f6) nopred) 30 1 with
   | POk p _ _ => p = 3 | _ => False end).
Proof. vm_compute. repeat split. Qed.
