(* C01: the statement proper.  The forward simulation (PegSimFwd.v: whatever the PEG spec answers, the
   reference interpreter of the generated type answers too, given enough fuel), fuel monotonicity /
   determinism of both interpreters (PegMono.v) and the refinement of the reference interpreter by the
   real parse path (Refine.v, C05) combine into "succeeds exactly when, same offset, same stack". *)
From Coq Require Import List ZArith.
From PT Require Import Model.Base Model.Stack Model.Texpr Model.Sem Model.Aparse.
From PT Require Import Model.Ast Model.PegSpec Model.GenEnv.
From PT Require Import Proofs.PegMono Proofs.PegSimBase Proofs.PegSimFwd Proofs.Refine Proofs.RefineCor.
Import ListNotations.

Lemma env_of_fixed eoi g I pred : fixed (env_of eoi g I pred).
Proof. repeat split; reflexivity. Qed.

Lemma env_of_inp eoi g I pred : e_inp (env_of eoi g I pred) = I.
Proof. reflexivity. Qed.

Definition agrees_with_peg (p : pres) (tp : res (nat * tnode)) : Prop :=
  match p with
  | POk pos stk _ => exists t st', tp = Ok (pos, t) st' /\ cache (Sem.stk st') = stk
  | PFail => exists st', tp = Fail st'
  | PPanic => False
  | PFuel => False
  end.

(* "succeeds exactly when ... and both stop at the same byte offset", read off an agreement *)
Lemma agrees_accepts p tp : agrees_with_peg p tp -> forall pos,
  (exists t st', tp = Ok (pos, t) st') <-> (exists stk toks, p = POk pos stk toks).
Proof.
  intros H pos. destruct p as [pos' stk toks| | |]; cbn [agrees_with_peg] in H; try contradiction.
  - destruct H as (t & st' & -> & _). split.
    + intros (t1 & st1 & [= <- _ _]). eauto.
    + intros (stk1 & toks1 & [= <- _ _]). eauto.
  - destruct H as (st' & ->). split; [intros (t1 & st1 & H1)|intros (stk1 & toks1 & H1)]; discriminate.
Qed.

Section Main.
  Variables (g : ogrammar) (eoi : N) (I : inp) (pred : N -> char -> bool).
  Local Notation E := (env_of eoi g I pred).
  Local Notation G := (penv_of eoi g I pred).
  Hypothesis Hws : ws_ok g = true.
  Hypothesis Heoi : eoi_fresh eoi g = true.

  (* reference interpreter vs spec, both with some fuel on which they end *)
  Lemma aparse_is_peg r : callable eoi g r = true -> forall n m,
    peg_entry G n r <> PFuel ->
    aparse E m true (TRule r SkOn) (i_start I) [] <> AFuel ->
    fsim (peg_entry G n r) (aparse E m true (TRule r SkOn) (i_start I) []).
  Proof.
    intros Hc n m Hn Hm.
    destruct (peg_entry_fwd g eoi I pred Hws Heoi r Hc n) as [m0 H0].
    specialize (H0 _ (Nat.le_max_r m m0)).
    rewrite (aparse_mono E m _ (Nat.le_max_l m m0) true (TRule r SkOn) (i_start I) [] Hm) in H0.
    exact H0.
  Qed.

  Theorem typed_is_peg r : callable eoi g r = true -> forall n m,
    peg_entry G n r <> PFuel ->
    aparse E m true (TRule r SkOn) (i_start I) [] <> AFuel ->
    aparse E m true (TRule r SkOn) (i_start I) [] <> APanic ->
    agrees_with_peg (peg_entry G n r) (try_parse_partial E m r).
  Proof.
    intros Hc n m Hn Hm Hp.
    pose proof (aparse_is_peg r Hc n m Hn Hm) as Hf.
    pose proof (try_parse_partial_refines E m r (env_of_fixed eoi g I pred)) as Hr.
    rewrite env_of_inp in Hr. specialize (Hr Hp).
    destruct (peg_entry G n r) as [pos stk toks| | |]; cbn [fsim agrees_with_peg] in *.
    - destruct Hf as [Hf|[t Hf]]; [congruence|]. rewrite Hf in Hr.
      destruct (try_parse_partial E m r) as [[p t'] st'|st'| |]; cbn [rel] in Hr; try contradiction.
      destruct Hr as (-> & -> & Hc' & _). exists t, st'. split; [reflexivity|exact Hc'].
    - destruct Hf as [Hf|Hf]; [congruence|]. rewrite Hf in Hr.
      destruct (try_parse_partial E m r) as [[p t'] st'|st'| |]; cbn [rel] in Hr; try contradiction.
      exists st'. reflexivity.
    - congruence.
    - congruence.
  Qed.

  Corollary peg_no_panic r : callable eoi g r = true -> forall n m,
    aparse E m true (TRule r SkOn) (i_start I) [] <> AFuel ->
    aparse E m true (TRule r SkOn) (i_start I) [] <> APanic ->
    peg_entry G n r <> PPanic.
  Proof.
    intros Hc n m Hm Hp Hx.
    assert (Hn : peg_entry G n r <> PFuel) by congruence.
    pose proof (aparse_is_peg r Hc n m Hn Hm) as Hf. rewrite Hx in Hf. cbn [fsim] in Hf. congruence.
  Qed.
End Main.

(* The premises are satisfiable: r = { "a" ~ (inner | "c")* ~ &"b" ~ "b" }  inner = @{ "x" ~ "y" }
   WHITESPACE = _{ " " }  on "a x y b" (the atomic rule refuses the blank, so the repetition gives its
   skip back and the sequence skips again) *)
Definition ex_g : ogrammar :=
  mk_ogrammar
    [ mk_orule 1 KNormal
        (OSeq (OStr [97%N]) (OSeq (ORep (OChoice (OIdent (IdRule 2)) (OStr [99%N])))
                                  (OSeq (OPosPred (OStr [98%N])) (OStr [98%N]))));
      mk_orule 2 KAtomic (OSeq (OStr [120%N]) (OStr [121%N]));
      mk_orule 3 KSilent (OStr [32%N]) ]
    (Some 3%N) None.
Definition ex_in1 : list byte := [97; 32; 120; 121; 32; 32; 98]%N.      (* "a xy  b" : accepted, offset 7 *)
Definition ex_in2 : list byte := [97; 32; 120; 32; 121; 32; 98]%N.      (* "a x y b" : rejected *)

Lemma typed_is_peg_example :
  ws_ok ex_g = true /\ eoi_fresh 0 ex_g = true /\ callable 0 ex_g 1 = true /\
  (exists stk toks, peg_entry (penv_of 0 ex_g (inp_of_str ex_in1) (fun _ _ => false)) 40 1 = POk 7 stk toks) /\
  is_aok (aparse (env_of 0 ex_g (inp_of_str ex_in1) (fun _ _ => false)) 40 true (TRule 1 SkOn) 0 []) = true /\
  peg_entry (penv_of 0 ex_g (inp_of_str ex_in2) (fun _ _ => false)) 40 1 = PFail /\
  aparse (env_of 0 ex_g (inp_of_str ex_in2) (fun _ _ => false)) 40 true (TRule 1 SkOn) 0 [] = AFail.
Proof. vm_compute. repeat split; eauto. Qed.

(* C11 non-vacuity: the same grammar passes the certificate checker with the inferred certificate. *)
From PT Require Import Model.Wf.
Lemma wf_cert_example :
  let E := env_of 0 ex_g (inp_of_str ex_in1) (fun _ _ => false) in
  wf_cert [1; 2; 3]%N (e_rules E) (e_skip E) (infer_cert [1; 2; 3]%N (e_rules E) (e_skip E)) = true /\
  N.of_nat (fuel_bound [1; 2; 3]%N (e_rules E) (e_skip E) (infer_cert [1; 2; 3]%N (e_rules E) (e_skip E))
              (TRule 1 SkOn) 7) = 158%N.
Proof. vm_compute. split; reflexivity. Qed.

(* a left-recursive grammar is rejected whatever the certificate says about ranks: here with the inferred one *)
Definition lr_g : ogrammar := mk_ogrammar [ mk_orule 1 KNormal (OSeq (OOpt (OStr [120%N])) (OIdent (IdRule 1))) ] None None.
Lemma wf_cert_rejects_left_recursion :
  let E := env_of 0 lr_g (inp_of_str []) (fun _ _ => false) in
  wf_cert [1]%N (e_rules E) (e_skip E) (infer_cert [1]%N (e_rules E) (e_skip E)) = false.
Proof. vm_compute. reflexivity. Qed.
