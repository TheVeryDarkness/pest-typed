(* C01 with its premises on the real parse path only.

   PegMain.v states the main theorem under two hypotheses about the *reference* run ([aparse <> AFuel],
   [aparse <> APanic]).  By RefinePanic.v these can be discharged for every environment that meets the
   hypotheses of C09 ([env_ok]: the input is a `&str` / sub-input of one, i.e. valid UTF-8 cut on character
   boundaries, and the string literals of the grammar are valid UTF-8): there the real path and the reference
   run never panic, and one runs out of fuel exactly when the other does.  What remains is a premise on
   [try_parse_partial] alone: it ends on the given fuel.

   Without [env_ok] the hypothesis [try_parse_partial <> Panic] does NOT exclude a panic of the reference
   run ([reference_route_blocked] below: the reference interpreter trips a debug assertion inside the operand
   of a negative predicate that the real code, being on the check path there, never evaluates), so the
   statement cannot be obtained through [aparse] for ill-formed inputs. *)
From Coq Require Import List ZArith Bool Lia.
From PT Require Import Model.Base Model.Texpr Model.Sem Model.Aparse.
From PT Require Import Model.Ast Model.Translate Model.PegSpec Model.GenEnv.
From PT Require Import Proofs.PegSimBase Proofs.Refine Proofs.RefineCor.
From PT Require Import Proofs.BoundaryOps Proofs.Boundary.
From PT Require Import Proofs.PegMain Proofs.RefinePanic.
Import ListNotations.

Fixpoint olits (e : oexpr) : list (list byte) :=
  match e with
  | OStr s => [s]
  | OPosPred e1 | ONegPred e1 | OOpt e1 | ORep e1 | OPush e1 | ORestore e1 => olits e1
  | OSeq a b | OChoice a b => olits a ++ olits b
  | _ => []
  end.

(* every string literal of the grammar is valid UTF-8 (what a Rust `String` is) *)
Definition glits_ok (g : ogrammar) : Prop :=
  Forall (fun d => Forall valid_utf8 (olits (o_expr d))) (g_rules g).

Lemma spine_lits eoi k b :
  flat_map str_lits (seq_spine eoi k b) = str_lits (tr eoi k b) /\
  flat_map str_lits (choice_spine eoi k b) = str_lits (tr eoi k b).
Proof.
  split; destruct b; try apply app_nil_r.
  - rewrite tr_seq. reflexivity.
  - rewrite tr_choice. reflexivity.
Qed.

Lemma tr_str_lits eoi k e : str_lits (tr eoi k e) = olits e.
Proof.
  induction e as [s|s|lo hi|i|a b|e IH|e IH|a IHa b IHb|a IHa b IHb|e IH|e IH|ss|e IH|e IH];
    try reflexivity; try exact IH.
  - destruct i as [r|[]|p]; reflexivity.
  - rewrite tr_seq. cbn [str_lits flat_map olits]. rewrite (proj1 (spine_lits eoi k b)), IHa, IHb. reflexivity.
  - rewrite tr_choice. cbn [str_lits flat_map olits]. rewrite (proj2 (spine_lits eoi k b)), IHa, IHb. reflexivity.
Qed.

Lemma env_of_ok eoi g I pred : good_inp I -> glits_ok g -> env_ok (env_of eoi g I pred).
Proof.
  intros HI Hg. unfold env_ok. cbn [env_of e_inp e_su_cut e_ron_fixed e_rules e_skip].
  split; [exact HI|]. split; [reflexivity|]. split; [reflexivity|]. split.
  - intros r. destruct (r =? eoi)%N; [constructor|].
    destruct (lookup_rule (g_rules g) r) as [d|] eqn:Hd; [|constructor].
    unfold lookup_rule in Hd. apply find_some in Hd. destruct Hd as [Hin _].
    unfold glits_ok in Hg. rewrite Forall_forall in Hg. specialize (Hg d Hin).
    cbn [rdef_of_orule r_body]. unfold lits_ok. rewrite tr_str_lits. exact Hg.
  - unfold skip_of. destruct (g_ws g), (g_comment g); try exact I; constructor.
Qed.

Section Main2.
  Variables (g : ogrammar) (eoi : N) (I : inp) (pred : N -> char -> bool).
  Local Notation E := (env_of eoi g I pred).
  Local Notation G := (penv_of eoi g I pred).
  Hypothesis Hws : ws_ok g = true.
  Hypothesis Heoi : eoi_fresh eoi g = true.
  Hypothesis HE : env_ok E.

  (* the real prefix parse and the reference run, related with no side condition *)
  Lemma entry_rel m r :
    rel [] (try_parse_partial E m r) (aparse E m true (TRule r SkOn) (i_start I) []).
  Proof.
    pose proof (try_parse_partial_refines' E m r (env_of_fixed eoi g I pred) HE) as H.
    rewrite env_of_inp in H. exact H.
  Qed.

  Lemma entry_aparse_ends m r :
    try_parse_partial E m r <> Fuel ->
    aparse E m true (TRule r SkOn) (i_start I) [] <> AFuel /\
    aparse E m true (TRule r SkOn) (i_start I) [] <> APanic.
  Proof.
    intros Hf. pose proof (entry_rel m r) as H. unfold rel in H.
    destruct (try_parse_partial E m r) as [[p t] st'|st'| |];
      destruct (aparse E m true (TRule r SkOn) (i_start I) []) as [[p' t'] stk'| | |];
      try contradiction; try congruence; split; discriminate.
  Qed.

  (* the only premise about the typed side: the real prefix parse ends on fuel [m] *)
  Theorem typed_is_peg' r : callable eoi g r = true -> forall n m,
    peg_entry G n r <> PFuel ->
    try_parse_partial E m r <> Fuel ->
    agrees_with_peg (peg_entry G n r) (try_parse_partial E m r).
  Proof.
    intros Hc n m Hn Hm. destruct (entry_aparse_ends m r Hm) as [Hf Hp].
    exact (typed_is_peg g eoi I pred Hws Heoi r Hc n m Hn Hf Hp).
  Qed.

  (* as the property words it, with both premises on [try_parse_partial]; [<> Panic] is implied by [env_ok] (C09) *)
  Corollary typed_is_peg'' r : callable eoi g r = true -> forall n m,
    peg_entry G n r <> PFuel ->
    try_parse_partial E m r <> Fuel ->
    try_parse_partial E m r <> Panic ->
    agrees_with_peg (peg_entry G n r) (try_parse_partial E m r).
  Proof. intros Hc n m Hn Hm _. apply typed_is_peg'; assumption. Qed.

  Corollary peg_no_panic' r : callable eoi g r = true -> forall n m,
    try_parse_partial E m r <> Fuel ->
    peg_entry G n r <> PPanic.
  Proof.
    intros Hc n m Hm. destruct (entry_aparse_ends m r Hm) as [Hf Hp].
    exact (peg_no_panic g eoi I pred Hws Heoi r Hc n m Hf Hp).
  Qed.

  (* and the real parse never panics there (C09, restated for this environment) *)
  Lemma typed_no_panic m r : try_parse_partial E m r <> Panic.
  Proof.
    intros Hx. pose proof (try_parse_partial_good E m r HE) as H. rewrite Hx in H. exact H.
  Qed.
End Main2.

(* the same with the hypotheses on grammar and input spelled out *)
Theorem typed_is_peg_wf g eoi I pred :
  ws_ok g = true -> eoi_fresh eoi g = true -> good_inp I -> glits_ok g ->
  forall r, callable eoi g r = true -> forall n m,
  peg_entry (penv_of eoi g I pred) n r <> PFuel ->
  try_parse_partial (env_of eoi g I pred) m r <> Fuel ->
  agrees_with_peg (peg_entry (penv_of eoi g I pred) n r) (try_parse_partial (env_of eoi g I pred) m r).
Proof.
  intros Hws Heoi HI Hg. apply typed_is_peg'; try assumption. apply env_of_ok; assumption.
Qed.

(* The premises are satisfiable (the grammar and inputs of PegMain.v). *)

Lemma ex_g_lits : glits_ok ex_g.
Proof.
  assert (H : forall c, (c <? 128)%N = true -> valid_utf8 [c]).
  { intros c Hc. exists [c]. split.
    - constructor; [|constructor]. unfold valid_char.
      apply N.ltb_lt in Hc. apply andb_true_intro. split.
      + apply N.ltb_lt. lia.
      + apply negb_true_iff. apply andb_false_intro1. apply N.leb_gt. lia.
    - unfold encode. cbn [flat_map]. unfold enc. rewrite Hc. reflexivity. }
  repeat constructor; apply H; reflexivity.
Qed.

Lemma ex_in1_good : good_inp (inp_of_str ex_in1).
Proof.
  change ex_in1 with (encode [97; 32; 120; 121; 32; 32; 98]%N). apply good_inp_str. repeat constructor.
Qed.

Lemma typed_is_peg_wf_example :
  ws_ok ex_g = true /\ eoi_fresh 0 ex_g = true /\ good_inp (inp_of_str ex_in1) /\ glits_ok ex_g /\
  callable 0 ex_g 1 = true /\
  peg_entry (penv_of 0 ex_g (inp_of_str ex_in1) (fun _ _ => false)) 40 1 <> PFuel /\
  try_parse_partial (env_of 0 ex_g (inp_of_str ex_in1) (fun _ _ => false)) 40 1 <> Fuel.
Proof.
  split; [reflexivity|]. split; [reflexivity|]. split; [exact ex_in1_good|]. split; [exact ex_g_lits|].
  split; [reflexivity|]. split; vm_compute; discriminate.
Qed.

(* Why [env_ok] cannot simply be dropped on this route.
   r1 = { !r2 }  r2 = { SOI }  on a "sub-input" that starts behind the end of its (empty) parent string -- not
   an input the Rust API can build.  The real parse and the spec agree (both fail), the real parse does not
   panic, but the reference run does: `start.span(end)` of r2 inside the negative predicate. *)
Definition blocked_I : inp := mk_inp [] 5 0 FPos.
Definition blocked_g : ogrammar :=
  mk_ogrammar [ mk_orule 1 KNormal (ONegPred (OIdent (IdRule 2)));
                mk_orule 2 KNormal (OIdent (IdBuiltin BSoi)) ] None None.

Lemma reference_route_blocked :
  ws_ok blocked_g = true /\ eoi_fresh 0 blocked_g = true /\ callable 0 blocked_g 1 = true /\
  is_fail (try_parse_partial (env_of 0 blocked_g blocked_I (fun _ _ => false)) 10 1) = true /\
  peg_entry (penv_of 0 blocked_g blocked_I (fun _ _ => false)) 10 1 = PFail /\
  aparse (env_of 0 blocked_g blocked_I (fun _ _ => false)) 10 true (TRule 1 SkOn) (i_start blocked_I) [] = APanic.
Proof. vm_compute. repeat split. Qed.
