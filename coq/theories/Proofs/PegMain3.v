(* C01, total form: no premise about either run.

   PegMain.v / PegMain2.v need "the spec run ends" ([peg_entry <> PFuel]) and "the typed run ends"
   ([try_parse_partial <> Fuel]).  The second is C11 (Termination.v: under the verified certificate checker
   [wf_cert] the explicit [fuel_bound] suffices); the first follows from the second by the BACKWARD simulation
   (PegSimRev.v: where the reference run of the generated type ends with a value or a failure, the PEG spec ends
   too, with the same verdict, offset and stack).  Hence: for a well-founded grammar both runs end, for all large
   enough fuels, and agree. *)
From Coq Require Import List ZArith.
From PT Require Import Model.Base Model.Texpr Model.Sem.
From PT Require Import Model.Ast Model.PegSpec Model.GenEnv Model.Wf.
From PT Require Import Proofs.PegSimBase Proofs.PegSimRev.
From PT Require Import Proofs.BoundaryOps Proofs.Termination.
From PT Require Import Proofs.PegMain Proofs.PegMain2.
Import ListNotations.

Section Main3.
  Variables (g : ogrammar) (eoi : N) (I : inp) (pred : N -> char -> bool).
  Local Notation E := (env_of eoi g I pred).
  Local Notation G := (penv_of eoi g I pred).
  Hypothesis Hws : ws_ok g = true.
  Hypothesis Heoi : eoi_fresh eoi g = true.
  Hypothesis HI : good_inp I.
  Hypothesis Hg : glits_ok g.

  (* the spec ends wherever the real prefix parse does: no premise on the spec run is needed *)
  Theorem peg_ends_if_typed_ends r : callable eoi g r = true -> forall m,
    try_parse_partial E m r <> Fuel ->
    exists n, forall n', n <= n' -> peg_entry G n' r <> PFuel /\ peg_entry G n' r <> PPanic.
  Proof.
    intros Hc m Hm.
    destruct (entry_aparse_ends g eoi I pred (env_of_ok eoi g I pred HI Hg) m r Hm) as [Hf Hp].
    exact (peg_entry_ends g eoi I pred Hws Heoi r Hc m Hf Hp).
  Qed.

  (* C01 with the only premise "the real prefix parse ends on SOME fuel": the spec then ends, and they agree
     on all large enough fuels *)
  Theorem typed_is_peg_rev r : callable eoi g r = true -> forall m,
    try_parse_partial E m r <> Fuel ->
    exists n, forall n', n <= n' ->
      agrees_with_peg (peg_entry G n' r) (try_parse_partial E m r).
  Proof.
    intros Hc m Hm. destruct (peg_ends_if_typed_ends r Hc m Hm) as [n Hn]. exists n. intros n' Hle.
    destruct (Hn n' Hle) as [Hf _].
    exact (typed_is_peg_wf g eoi I pred Hws Heoi HI Hg r Hc n' m Hf Hm).
  Qed.
End Main3.

(* the explicit fuels: the typed side's is C11's [fuel_bound] *)
Theorem typed_is_peg_total_bound g eoi I pred rules c :
  ws_ok g = true -> eoi_fresh eoi g = true -> good_inp I -> glits_ok g ->
  wf_cert rules (e_rules (env_of eoi g I pred)) (e_skip (env_of eoi g I pred)) c = true ->
  forall r, callable eoi g r = true -> In r rules ->
  exists n, forall n' m', n <= n' ->
    fuel_bound rules (e_rules (env_of eoi g I pred)) (e_skip (env_of eoi g I pred)) c (TRule r SkOn)
               (i_end I - i_start I) <= m' ->
    agrees_with_peg (peg_entry (penv_of eoi g I pred) n' r) (try_parse_partial (env_of eoi g I pred) m' r).
Proof.
  intros Hws Heoi HI Hg Hwf r Hc Hin.
  pose proof (env_of_ok eoi g I pred HI Hg) as HE.
  assert (Hm : forall m', fuel_bound rules (e_rules (env_of eoi g I pred)) (e_skip (env_of eoi g I pred)) c
                            (TRule r SkOn) (i_end I - i_start I) <= m' ->
                          try_parse_partial (env_of eoi g I pred) m' r <> Fuel).
  { intros m' Hle. exact (proj1 (entry_points_terminate (env_of eoi g I pred) rules c HE Hwf r m' Hin Hle)). }
  destruct (peg_ends_if_typed_ends g eoi I pred Hws Heoi HI Hg r Hc _ (Hm _ (le_n _))) as [n Hn].
  exists n. intros n' m' Hn' Hm'.
  destruct (Hn n' Hn') as [Hf _].
  exact (typed_is_peg_wf g eoi I pred Hws Heoi HI Hg r Hc n' m' Hf (Hm m' Hm')).
Qed.

Theorem typed_is_peg_total g eoi I pred rules c :
  ws_ok g = true -> eoi_fresh eoi g = true -> good_inp I -> glits_ok g ->
  wf_cert rules (e_rules (env_of eoi g I pred)) (e_skip (env_of eoi g I pred)) c = true ->
  forall r, callable eoi g r = true -> In r rules ->
  exists n m, forall n' m', n <= n' -> m <= m' ->
    agrees_with_peg (peg_entry (penv_of eoi g I pred) n' r) (try_parse_partial (env_of eoi g I pred) m' r).
Proof.
  intros Hws Heoi HI Hg Hwf r Hc Hin.
  destruct (typed_is_peg_total_bound g eoi I pred rules c Hws Heoi HI Hg Hwf r Hc Hin) as [n H].
  exists n. eexists. intros n' m' Hn' Hm'. exact (H n' m' Hn' Hm').
Qed.

(* "succeeds exactly when, same offset", total *)
Corollary typed_accepts_iff_peg_total g eoi I pred rules c :
  ws_ok g = true -> eoi_fresh eoi g = true -> good_inp I -> glits_ok g ->
  wf_cert rules (e_rules (env_of eoi g I pred)) (e_skip (env_of eoi g I pred)) c = true ->
  forall r, callable eoi g r = true -> In r rules ->
  exists n m, forall n' m', n <= n' -> m <= m' -> forall pos,
    (exists t st', try_parse_partial (env_of eoi g I pred) m' r = Ok (pos, t) st') <->
    (exists stk toks, peg_entry (penv_of eoi g I pred) n' r = POk pos stk toks).
Proof.
  intros Hws Heoi HI Hg Hwf r Hc Hin.
  destruct (typed_is_peg_total g eoi I pred rules c Hws Heoi HI Hg Hwf r Hc Hin) as (n & m & H).
  exists n, m. intros n' m' Hn' Hm'. exact (agrees_accepts _ _ (H n' m' Hn' Hm')).
Qed.

(* The premises are satisfiable: the grammar of PegMain.v with the inferred certificate. *)
Lemma typed_is_peg_total_example :
  let E := env_of 0 ex_g (inp_of_str ex_in1) (fun _ _ => false) in
  ws_ok ex_g = true /\ eoi_fresh 0 ex_g = true /\ good_inp (inp_of_str ex_in1) /\ glits_ok ex_g /\
  wf_cert [1; 2; 3]%N (e_rules E) (e_skip E) (infer_cert [1; 2; 3]%N (e_rules E) (e_skip E)) = true /\
  callable 0 ex_g 1 = true /\ In 1%N [1; 2; 3]%N.
Proof.
  cbv zeta.
  split; [reflexivity|]. split; [reflexivity|]. split; [exact ex_in1_good|]. split; [exact ex_g_lits|].
  split; [vm_compute; reflexivity|]. split; [reflexivity|]. left. reflexivity.
Qed.

(* hence, with no further premise, on that input *)
Corollary typed_is_peg_total_instance :
  exists n m, forall n' m', n <= n' -> m <= m' ->
    agrees_with_peg (peg_entry (penv_of 0 ex_g (inp_of_str ex_in1) (fun _ _ => false)) n' 1)
                    (try_parse_partial (env_of 0 ex_g (inp_of_str ex_in1) (fun _ _ => false)) m' 1).
Proof.
  destruct typed_is_peg_total_example as (H1 & H2 & H3 & H4 & H5 & H6 & H7).
  exact (typed_is_peg_total ex_g 0 (inp_of_str ex_in1) (fun _ _ => false) [1; 2; 3]%N _ H1 H2 H3 H4 H5 1%N H6 H7).
Qed.
