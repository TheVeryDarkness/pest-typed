(* C01: fuel monotonicity of the two interpreters that C01 compares -- the reference interpreter of the
   typed parser [aparse] and the PEG spec [peg] / [p_call] / [peg_entry].  A run that ends with anything
   but "out of fuel" ends the same way with more fuel (interpretive fuel and loop fuel alike). *)
From Coq Require Import List NArith Arith.
From PT Require Import Model.Stack Model.Texpr Model.Sem Model.Aparse Model.Tok Model.Ast Model.PegSpec.
From PT Require Import Proofs.FuelFacts.
Import ListNotations.

Notation ale := (upto AFuel).
Notation ple := (upto PFuel).

(* The order is compositional: both interpreters continue a run by a [match] of this shape, so a later
   run with later continuations gives a later result. *)
Lemma ale_match {A B} (r r' : ares A) (k k' : A -> list span -> ares B) f f' :
  ale r r' -> (forall a s, ale (k a s) (k' a s)) -> ale f f' ->
  ale (match r with AOk a s => k a s | AFail => f | APanic => APanic | AFuel => AFuel end)
      (match r' with AOk a s => k' a s | AFail => f' | APanic => APanic | AFuel => AFuel end).
Proof.
  unfold upto. intros H Hk Hf.
  destruct r as [a s| | |]; try (rewrite H by discriminate); auto. intros []. reflexivity.
Qed.

Lemma ple_match (r r' : pres) (k k' : nat -> list span -> list tok -> pres) f f' :
  ple r r' -> (forall p s t, ple (k p s t) (k' p s t)) -> ple f f' ->
  ple (match r with POk p s t => k p s t | PFail => f | PPanic => PPanic | PFuel => PFuel end)
      (match r' with POk p s t => k' p s t | PFail => f' | PPanic => PPanic | PFuel => PFuel end).
Proof.
  unfold upto. intros H Hk Hf.
  destruct r as [p s t| | |]; try (rewrite H by discriminate); auto. intros []. reflexivity.
Qed.

Lemma ale_same {A B} (r r' : ares A) (k : A -> list span -> ares B) f :
  ale r r' ->
  ale (match r with AOk a s => k a s | AFail => f | APanic => APanic | AFuel => AFuel end)
      (match r' with AOk a s => k a s | AFail => f | APanic => APanic | AFuel => AFuel end).
Proof. intros H. apply ale_match; [exact H|intros; apply upto_refl|apply upto_refl]. Qed.

Lemma ple_same (r r' : pres) (k : nat -> list span -> list tok -> pres) f :
  ple r r' ->
  ple (match r with POk p s t => k p s t | PFail => f | PPanic => PPanic | PFuel => PFuel end)
      (match r' with POk p s t => k p s t | PFail => f | PPanic => PPanic | PFuel => PFuel end).
Proof. intros H. apply ple_match; [exact H|intros; apply upto_refl|apply upto_refl]. Qed.

Section AMono.
  Variable E : env.
  Variables A1 A2 : bool -> texpr -> nat -> list span -> ares (nat * tnode).
  Hypothesis HA : forall inh e pos stk, ale (A1 inh e pos stk) (A2 inh e pos stk).
  Variables lf1 lf2 : nat.
  Hypothesis Hlf : lf1 <= lf2.

  Lemma a_arep_mono : forall n1 n2, n1 <= n2 -> forall inh e pos stk acc,
    ale (a_arep A1 n1 inh e pos stk acc) (a_arep A2 n2 inh e pos stk acc).
  Proof.
    induction n1 as [|n1 IH]; intros [|n2] Hle inh e pos stk acc; try apply upto_fuel.
    - destruct (Nat.nle_succ_0 _ Hle).
    - apply ale_match; [apply HA|intros [p t] s; apply IH, le_S_n, Hle|apply upto_refl].
  Qed.

  Lemma a_skip_mono pos stk : ale (a_skip E A1 lf1 pos stk) (a_skip E A2 lf2 pos stk).
  Proof. unfold a_skip. destruct (e_skip E); [apply upto_refl|apply a_arep_mono, Hlf]. Qed.

  Lemma a_pre_skip_mono b doit pos stk :
    ale (a_pre_skip E A1 lf1 b doit pos stk) (a_pre_skip E A2 lf2 b doit pos stk).
  Proof. destruct b, doit; try apply upto_refl. apply ale_same, a_skip_mono. Qed.

  Lemma a_seq_mono b inh : forall es first pos stk acc,
    ale (a_seq E A1 lf1 b inh es first pos stk acc) (a_seq E A2 lf2 b inh es first pos stk acc).
  Proof.
    induction es as [|e es IH]; intros; [apply upto_refl|].
    apply ale_match; [apply a_pre_skip_mono|intros [p sk] s|apply upto_refl].
    apply ale_match; [apply HA|intros [p' t] s'; apply IH|apply upto_refl].
  Qed.

  Lemma a_choice_mono inh n : forall es i pos stk,
    ale (a_choice A1 inh n es i pos stk) (a_choice A2 inh n es i pos stk).
  Proof.
    induction es as [|e es IH]; intros; [apply upto_refl|].
    apply ale_match; [apply HA|intros; apply upto_refl|apply IH].
  Qed.

  Lemma a_unit_mono b inh e i pos stk :
    ale (a_unit E A1 lf1 b inh e i pos stk) (a_unit E A2 lf2 b inh e i pos stk).
  Proof.
    apply ale_match; [apply a_pre_skip_mono|intros [p sk] s|apply upto_refl]. apply ale_same, HA.
  Qed.

  Lemma a_rep_mono b inh mn mx e : forall n1 n2, n1 <= n2 -> forall i pos stk acc,
    ale (a_rep E A1 lf1 n1 b inh mn mx e i pos stk acc) (a_rep E A2 lf2 n2 b inh mn mx e i pos stk acc).
  Proof.
    induction n1 as [|n1 IH]; intros [|n2] Hle i pos stk acc; cbn [a_rep];
      destruct (below i mx); try apply upto_refl; try apply upto_fuel.
    - destruct (Nat.nle_succ_0 _ Hle).
    - apply ale_match; [apply a_unit_mono|intros [p it] s; apply IH, le_S_n, Hle|apply upto_refl].
  Qed.

  Lemma a_arr_mono inh e : forall n pos stk acc,
    ale (a_arr A1 n inh e pos stk acc) (a_arr A2 n inh e pos stk acc).
  Proof.
    induction n as [|n IH]; intros; [apply upto_refl|].
    apply ale_match; [apply HA|intros [p t] s; apply IH|apply upto_refl].
  Qed.

  Lemma a_step_mono inh e pos stk : ale (a_step E A1 lf1 inh e pos stk) (a_step E A2 lf2 inh e pos stk).
  Proof.
    destruct e; cbn [a_step]; try apply upto_refl; try (apply ale_same, HA).
    - apply a_seq_mono.
    - apply a_choice_mono.
    - apply a_rep_mono, Hlf.
    - apply a_arep_mono, Hlf.
    - apply a_arr_mono.
    - apply ale_match; [apply HA|intros [p t] s; apply ale_same, HA|apply upto_refl].
  Qed.
End AMono.

Theorem aparse_mono E : forall n m, n <= m -> forall inh e pos stk,
  aparse E n inh e pos stk <> AFuel -> aparse E m inh e pos stk = aparse E n inh e pos stk.
Proof.
  induction n as [|n IH]; intros [|m] Hle inh e pos stk; try apply upto_fuel.
  - destruct (Nat.nle_succ_0 _ Hle).
  - apply le_S_n in Hle. apply a_step_mono; [exact (IH m Hle)|exact Hle].
Qed.

Corollary aparse_fuel_mono E n inh e pos stk r :
  aparse E n inh e pos stk = r -> r <> AFuel -> forall m, n <= m -> aparse E m inh e pos stk = r.
Proof.
  apply (run_stable AFuel (fun n => aparse E n inh e pos stk)). intros n0 m0 H. exact (aparse_mono E n0 m0 H inh e pos stk).
Qed.

Corollary aparse_det E n m inh e pos stk :
  aparse E n inh e pos stk <> AFuel -> aparse E m inh e pos stk <> AFuel ->
  aparse E n inh e pos stk = aparse E m inh e pos stk.
Proof.
  apply (run_det AFuel (fun n => aparse E n inh e pos stk)). intros n0 m0 H. exact (aparse_mono E n0 m0 H inh e pos stk).
Qed.

Section PMono.
  Variable G : penv.
  Variables R1 R2 : atomicity -> bool -> oexpr -> nat -> list span -> pres.
  Hypothesis HR : forall at_ la e pos stk, ple (R1 at_ la e pos stk) (R2 at_ la e pos stk).
  Variables C1 C2 : atomicity -> bool -> N -> nat -> list span -> pres.
  Hypothesis HC : forall at_ la r pos stk, ple (C1 at_ la r pos stk) (C2 at_ la r pos stk).
  Variables lf1 lf2 : nat.
  Hypothesis Hlf : lf1 <= lf2.

  Lemma p_repeat_rule_mono : forall n1 n2, n1 <= n2 -> forall at_ la r pos stk acc,
    ple (p_repeat_rule C1 n1 at_ la r pos stk acc) (p_repeat_rule C2 n2 at_ la r pos stk acc).
  Proof.
    induction n1 as [|n1 IH]; intros [|n2] Hle at_ la r pos stk acc; try apply upto_fuel.
    - destruct (Nat.nle_succ_0 _ Hle).
    - apply ple_match; [apply HC|intros; apply IH, le_S_n, Hle|apply upto_refl].
  Qed.

  Lemma p_repeat_cw_mono : forall n1 n2, n1 <= n2 -> forall at_ la w c pos stk acc,
    ple (p_repeat_cw C1 lf1 n1 at_ la w c pos stk acc) (p_repeat_cw C2 lf2 n2 at_ la w c pos stk acc).
  Proof.
    induction n1 as [|n1 IH]; intros [|n2] Hle at_ la w c pos stk acc; try apply upto_fuel.
    - destruct (Nat.nle_succ_0 _ Hle).
    - apply ple_match; [apply HC|intros|apply upto_refl].
      apply ple_match; [apply p_repeat_rule_mono, Hlf|intros; apply IH, le_S_n, Hle|apply upto_refl].
  Qed.

  Lemma p_skip_mono at_ la pos stk : ple (p_skip G C1 lf1 at_ la pos stk) (p_skip G C2 lf2 at_ la pos stk).
  Proof.
    unfold p_skip. destruct at_; try apply upto_refl.
    destruct (p_ws G) as [w|], (p_comment G) as [c|]; try apply upto_refl; try apply p_repeat_rule_mono, Hlf.
    apply ple_match; [apply p_repeat_rule_mono, Hlf|intros; apply p_repeat_cw_mono, Hlf|apply upto_refl].
  Qed.

  Lemma p_rep_more_mono : forall n1 n2, n1 <= n2 -> forall at_ la e pos stk acc,
    ple (p_rep_more G R1 C1 lf1 n1 at_ la e pos stk acc) (p_rep_more G R2 C2 lf2 n2 at_ la e pos stk acc).
  Proof.
    induction n1 as [|n1 IH]; intros [|n2] Hle at_ la e pos stk acc; try apply upto_fuel.
    - destruct (Nat.nle_succ_0 _ Hle).
    - apply ple_match; [apply p_skip_mono|intros|apply upto_refl].
      apply ple_match; [apply HR|intros; apply IH, le_S_n, Hle|apply upto_refl].
  Qed.

  Lemma p_step_mono at_ la e pos stk :
    ple (p_step G R1 C1 lf1 at_ la e pos stk) (p_step G R2 C2 lf2 at_ la e pos stk).
  Proof.
    destruct e; cbn [p_step]; try apply upto_refl; try apply HR; try (apply ple_same, HR).
    - destruct i; try apply upto_refl. apply HC.
    - apply ple_match; [apply HR|intros|apply upto_refl].
      apply ple_match; [apply p_skip_mono|intros; apply ple_same, HR|apply upto_refl].
    - apply ple_match; [apply HR|intros; apply upto_refl|apply HR].
    - apply ple_match; [apply HR|intros; apply p_rep_more_mono, Hlf|apply upto_refl].
  Qed.
End PMono.

Lemma p_call_mono G R1 R2 :
  (forall at_ la e pos stk, ple (R1 at_ la e pos stk) (R2 at_ la e pos stk)) ->
  forall at_ la r pos stk, ple (p_call G R1 at_ la r pos stk) (p_call G R2 at_ la r pos stk).
Proof.
  intros HR at_ la r pos stk. unfold p_call. destruct (p_rules G r) as [d|]; [|apply upto_refl].
  apply ple_same, HR.
Qed.

Theorem peg_mono G : forall n m, n <= m -> forall at_ la e pos stk,
  peg G n at_ la e pos stk <> PFuel -> peg G m at_ la e pos stk = peg G n at_ la e pos stk.
Proof.
  induction n as [|n IH]; intros [|m] Hle at_ la e pos stk; try apply upto_fuel.
  - destruct (Nat.nle_succ_0 _ Hle).
  - apply le_S_n in Hle.
    apply p_step_mono; [exact (IH m Hle)|exact (p_call_mono G _ _ (IH m Hle))|exact Hle].
Qed.

Corollary peg_fuel_mono G n at_ la e pos stk r :
  peg G n at_ la e pos stk = r -> r <> PFuel -> forall m, n <= m -> peg G m at_ la e pos stk = r.
Proof.
  apply (run_stable PFuel (fun n => peg G n at_ la e pos stk)). intros n0 m0 H. exact (peg_mono G n0 m0 H at_ la e pos stk).
Qed.

Theorem peg_call_mono G n m at_ la r pos stk : n <= m ->
  p_call G (peg G n) at_ la r pos stk <> PFuel ->
  p_call G (peg G m) at_ la r pos stk = p_call G (peg G n) at_ la r pos stk.
Proof.
  intros Hle. exact (p_call_mono G _ _ (peg_mono G n m Hle) at_ la r pos stk).
Qed.

Lemma peg_skip_mono G n n' l l' at_ la pos stk : n <= n' -> l <= l' ->
  p_skip G (p_call G (peg G n)) l at_ la pos stk <> PFuel ->
  p_skip G (p_call G (peg G n')) l' at_ la pos stk = p_skip G (p_call G (peg G n)) l at_ la pos stk.
Proof.
  intros Hn Hl. apply (p_skip_mono G (p_call G (peg G n)) (p_call G (peg G n'))); [|exact Hl].
  intros a b r p s. exact (peg_call_mono G n n' a b r p s Hn).
Qed.

Theorem peg_entry_mono G n m r : n <= m ->
  peg_entry G n r <> PFuel -> peg_entry G m r = peg_entry G n r.
Proof.
  destruct n as [|n], m as [|m]; intros Hle; try apply upto_fuel.
  - destruct (Nat.nle_succ_0 _ Hle).
  - apply peg_call_mono, le_S_n, Hle.
Qed.

Corollary peg_entry_fuel_mono G n r res :
  peg_entry G n r = res -> res <> PFuel -> forall m, n <= m -> peg_entry G m r = res.
Proof. apply (run_stable PFuel (fun n => peg_entry G n r)). intros n0 m0. exact (peg_entry_mono G n0 m0 r). Qed.

Corollary peg_entry_det G n m r :
  peg_entry G n r <> PFuel -> peg_entry G m r <> PFuel -> peg_entry G n r = peg_entry G m r.
Proof. apply (run_det PFuel (fun n => peg_entry G n r)). intros n0 m0. exact (peg_entry_mono G n0 m0 r). Qed.
