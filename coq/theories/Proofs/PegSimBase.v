(* C01: what the two simulation directions (PegSimFwd.v, PegSimRev.v) share -- the side conditions on the
   grammar, the relations between results, "for all large enough fuels", how a rule call decomposes, and the
   agreement of all leaves (terminals, built-ins, stack reads) of the optimized AST with their translations. *)
From Coq Require Import List ZArith Bool.
From PT Require Import Model.Base Model.Texpr Model.Sem Model.Aparse Model.Tok Model.Tokens.
From PT Require Import Model.Ast Model.Translate Model.PegSpec Model.GenEnv.
From PT Require Import Proofs.FuelFacts.
Import ListNotations.

(* [tr] flattens a right-nested OSeq / OChoice with a local [fix]; these are those two loops under a name. *)
Fixpoint seq_spine (eoi : N) (k : sk) (x : oexpr) : list texpr :=
  match x with
  | OSeq a b => tr eoi k a :: seq_spine eoi k b
  | _ => [tr eoi k x]
  end.

Fixpoint choice_spine (eoi : N) (k : sk) (x : oexpr) : list texpr :=
  match x with
  | OChoice a b => tr eoi k a :: choice_spine eoi k b
  | _ => [tr eoi k x]
  end.

Lemma tr_seq eoi k a b : tr eoi k (OSeq a b) = TSeq k (tr eoi k a :: seq_spine eoi k b).
Proof.
  cbn [tr]. do 2 f_equal. induction b; try reflexivity. cbn [seq_spine]. f_equal. exact IHb2.
Qed.

Lemma tr_choice eoi k a b : tr eoi k (OChoice a b) = TChoice (tr eoi k a :: choice_spine eoi k b).
Proof.
  cbn [tr]. do 2 f_equal. induction b; try reflexivity. cbn [choice_spine]. f_equal. exact IHb2.
Qed.

Definition kind_atomic (k : rkind) : bool :=
  match k with KAtomic | KCompound => true | _ => false end.

(* rule x may be referred to explicitly (from a rule body, or as the entry rule): it is not the EOI
   index, and if it is WHITESPACE / COMMENT then it is declared atomic or is atomicity-insensitive *)
Definition callable (eoi : N) (g : ogrammar) (x : N) : bool :=
  negb (x =? eoi)%N &&
  (negb (is_skip_name g x) ||
   match lookup_rule (g_rules g) x with
   | None => true
   | Some d => kind_atomic (o_kind d) || flat (o_expr d)
   end).

Lemma callable_ne {eoi g} r : callable eoi g r = true -> r <> eoi.
Proof. intros [H _]%andb_true_iff. apply N.eqb_neq, negb_true_iff, H. Qed.

Fixpoint refs_ok (eoi : N) (g : ogrammar) (e : oexpr) : bool :=
  match e with
  | OIdent (IdRule x) => callable eoi g x
  | OPosPred e1 | ONegPred e1 | OOpt e1 | ORep e1 | OPush e1 | ORestore e1 => refs_ok eoi g e1
  | OSeq a b | OChoice a b => refs_ok eoi g a && refs_ok eoi g b
  | _ => true
  end.

(* the index the generator gives the EOI rule is not a rule of the grammar, is not mentioned as one, and
   is not WHITESPACE / COMMENT *)
Definition eoi_fresh (eoi : N) (g : ogrammar) : bool :=
  negb (existsb (fun d => (o_name d =? eoi)%N || mentions eoi (o_expr d)) (g_rules g)) &&
  negb (is_skip_name g eoi).

(* forward: what the typed side may answer when the spec answers p (tokens and trees are ignored; the typed
   side has more debug assertions, hence may panic where the spec does not); backward is [rsim] *)
Definition fsim {T} (p : pres) (a : ares (nat * T)) : Prop :=
  match p with
  | POk pos stk _ => a = APanic \/ exists t, a = AOk (pos, t) stk
  | PFail => a = APanic \/ a = AFail
  | PPanic => a = APanic
  | PFuel => True
  end.

Definition rsim {T} (a : ares (nat * T)) (p : pres) : Prop :=
  match a with
  | AOk (pos, _) stk => exists toks, p = POk pos stk toks
  | AFail => p = PFail
  | _ => True
  end.

(* both, for constructs that need no recursion *)
Definition lagree {T} (p : pres) (a : ares (nat * T)) : Prop :=
  match p with
  | POk pos stk _ => a = APanic \/ exists t, a = AOk (pos, t) stk
  | PFail => a = APanic \/ a = AFail
  | PPanic => a = APanic
  | PFuel => False
  end.

Lemma lagree_rsim {T} p (a : ares (nat * T)) : lagree p a -> rsim a p.
Proof.
  destruct p as [pos stk toks| | |]; cbn [lagree]; intros H.
  - destruct H as [->|[t ->]]; cbn; eauto.
  - destruct H as [->| ->]; cbn; eauto.
  - subst a. exact I.
  - destruct H.
Qed.

Lemma lagree_nofuel {T} p (a : ares (nat * T)) : lagree p a -> a <> AFuel.
Proof.
  destruct p as [pos stk toks| | |]; cbn [lagree]; intros H Hx; subst a.
  - destruct H as [H|[t H]]; discriminate.
  - destruct H as [H|H]; discriminate.
  - discriminate.
  - exact H.
Qed.

Definition lagreeP {T} (P : T -> list tok -> Prop) (p : pres) (a : ares (nat * T)) : Prop :=
  match p with
  | POk pos stk toks => a = APanic \/ exists t, a = AOk (pos, t) stk /\ P t toks
  | PFail => a = APanic \/ a = AFail
  | PPanic => a = APanic
  | PFuel => False
  end.

Lemma lagreeP_lagree {T} P p (a : ares (nat * T)) : lagreeP P p a -> lagree p a.
Proof.
  destruct p as [pos stk toks| | |]; cbn [lagreeP lagree]; intros H; try exact H.
  destruct H as [H|[t [H _]]]; [left; exact H|right; exists t; exact H].
Qed.

Lemma fsim_toks {T} pos stk toks toks' (a : ares (nat * T)) :
  fsim (POk pos stk toks) a -> fsim (POk pos stk toks') a.
Proof. exact (fun H => H). Qed.

(* the context relation: the typed skip flag is on exactly when the spec is non-atomic -- or the expression
   cannot tell (flat) *)
Definition ctx (e : oexpr) (k : sk) (inh : bool) (at_ : atomicity) : Prop :=
  flat e = true \/ (resolve k inh = true <-> at_ = ANon).

(* the atomicity a rule body runs in (p_call) *)
Definition inner_at (g : ogrammar) (at_ : atomicity) (r : N) (k : rkind) : atomicity :=
  match k with
  | KAtomic => AAtomic
  | KCompound => ACompound
  | KNonAtomic => if is_skip_name g r then AAtomic else ANon
  | KNormal | KSilent => if is_skip_name g r then AAtomic else at_
  end.

(* when may rule r be called with typed flag inh' against spec atomicity at_ *)
Definition call_pre (g : ogrammar) (r : N) (inh' : bool) (at_ : atomicity) : Prop :=
  if is_skip_name g r then
    match lookup_rule (g_rules g) r with
    | None => True
    | Some d =>
        kind_atomic (o_kind d) = true \/ flat (o_expr d) = true \/ (inh' = false /\ o_kind d <> KNonAtomic)
    end
  else (inh' = true <-> at_ = ANon).

Lemma call_ctx g r inh' at_ d :
  call_pre g r inh' at_ -> lookup_rule (g_rules g) r = Some d ->
  ctx (o_expr d) (skip_of_kind (o_kind d)) inh' (inner_at g at_ r (o_kind d)).
Proof.
  unfold call_pre, ctx, inner_at. intros H Hl. rewrite Hl in H.
  destruct (is_skip_name g r).
  - destruct H as [H|[H|[H1 H2]]]; [|left; exact H|].
    + right. destruct (o_kind d); cbn in *; try discriminate; split; discriminate.
    + right. subst inh'. destruct (o_kind d); cbn; try congruence; split; discriminate.
  - right. destruct (o_kind d); cbn; try exact H; split; try discriminate; reflexivity.
Qed.

(* does the spec emit a token for a call of a rule of kind k seen from atomicity at_ (outside lookahead) *)
Definition tok_seen (at_ : atomicity) (k : rkind) : bool :=
  match k with
  | KSilent => false
  | KCompound | KNonAtomic => true
  | KNormal | KAtomic => match at_ with AAtomic => false | _ => true end
  end.

Lemma lookup_in rs r d : lookup_rule rs r = Some d -> In d rs.
Proof. unfold lookup_rule. intros H. apply find_some in H. tauto. Qed.

Lemma find_none_all {A} (f : A -> bool) l : (forall x, In x l -> f x = false) -> find f l = None.
Proof.
  induction l as [|x l IH]; intros H; cbn; [reflexivity|].
  rewrite (H x (or_introl eq_refl)). apply IH. intros y Hy. apply H. right. exact Hy.
Qed.

Lemma aparse_S E n inh e pos stk : aparse E (S n) inh e pos stk = a_step E (aparse E n) n inh e pos stk.
Proof. reflexivity. Qed.

(* [eventually] of three fuels at once; in the forward simulation m is the fuel of the typed interpreter one
   level down, l that of its skip loops, n that of the loop at hand. *)
Definition eventually3 (Q : nat -> nat -> nat -> Prop) : Prop :=
  eventually (fun k => forall m l n, k <= m -> k <= l -> k <= n -> Q m l n).

Lemma ev3_all (Q : nat -> nat -> nat -> Prop) : (forall m l n, Q m l n) -> eventually3 Q.
Proof. intros H. apply ev_all. intros k m l n _ _ _. apply H. Qed.

Lemma ev3_imp (Q Q' : nat -> nat -> nat -> Prop) :
  eventually3 Q -> (forall m l n, Q m l n -> Q' m l n) -> eventually3 Q'.
Proof. intros H HQ. refine (ev_imp _ _ H _). intros k Hk m l n Hm Hl Hn. exact (HQ m l n (Hk m l n Hm Hl Hn)). Qed.

Lemma ev3_up1 Q : eventually3 Q -> eventually3 (fun m l n => Q (S m) l n).
Proof. intros H. refine (ev_imp _ _ H _). intros k Hk m l n Hm Hl Hn. exact (Hk (S m) l n (le_S _ _ Hm) Hl Hn). Qed.

Lemma ev3_S1 Q : eventually3 (fun m l n => Q (S m) l n) -> eventually3 Q.
Proof.
  intros H. apply ev_S. refine (ev_imp _ _ H _). intros k Hk [|m] l n Hm Hl Hn; [destruct (Nat.nle_succ_0 _ Hm)|].
  exact (Hk m l n (le_S_n _ _ Hm) (Nat.lt_le_incl _ _ Hl) (Nat.lt_le_incl _ _ Hn)).
Qed.

Lemma ev3_S2 Q : eventually3 (fun m l n => Q m (S l) n) -> eventually3 Q.
Proof.
  intros H. apply ev_S. refine (ev_imp _ _ H _). intros k Hk m [|l] n Hm Hl Hn; [destruct (Nat.nle_succ_0 _ Hl)|].
  exact (Hk m l n (Nat.lt_le_incl _ _ Hm) (le_S_n _ _ Hl) (Nat.lt_le_incl _ _ Hn)).
Qed.

Lemma ev3_S3 Q : eventually3 (fun m l n => Q m l (S n)) -> eventually3 Q.
Proof.
  intros H. apply ev_S. refine (ev_imp _ _ H _). intros k Hk m l [|n] Hm Hl Hn; [destruct (Nat.nle_succ_0 _ Hn)|].
  exact (Hk m l n (Nat.lt_le_incl _ _ Hm) (Nat.lt_le_incl _ _ Hl) (le_S_n _ _ Hn)).
Qed.

Lemma ev3_diag Q : eventually3 Q -> eventually3 (fun m l _ => Q m l l).
Proof. intros H. refine (ev_imp _ _ H _). intros k Hk m l n Hm Hl _. exact (Hk m l l Hm Hl Hl). Qed.

Lemma ev3_1 (Q : nat -> Prop) : eventually3 (fun m _ _ => Q m) <-> eventually Q.
Proof.
  split; intros [k H]; exists k.
  - intros m Hm. exact (H k (le_n k) m m m Hm Hm Hm).
  - intros k' Hk m l n Hm _ _. exact (H m (Nat.le_trans _ _ _ Hk Hm)).
Qed.

Lemma ev3_2 (Q : nat -> nat -> Prop) :
  eventually3 (fun m l _ => Q m l) <-> exists k, forall m l, k <= m -> k <= l -> Q m l.
Proof.
  split; intros [k H]; exists k.
  - intros m l Hm Hl. exact (H k (le_n k) m l l Hm Hl Hl).
  - intros k' Hk m l n Hm Hl _. exact (H m l (Nat.le_trans _ _ _ Hk Hm) (Nat.le_trans _ _ _ Hk Hl)).
Qed.

Section Base.
  Variables (g : ogrammar) (eoi : N) (I : inp) (pred : N -> char -> bool).
  Local Notation E := (env_of eoi g I pred).
  Local Notation G := (penv_of eoi g I pred).

  Hypothesis Hws : ws_ok g = true.
  Hypothesis Heoi : eoi_fresh eoi g = true.

  Lemma eoi_undefined : lookup_rule (g_rules g) eoi = None.
  Proof.
    unfold eoi_fresh in Heoi. apply andb_true_iff in Heoi. destruct Heoi as [H _].
    apply negb_true_iff in H. unfold lookup_rule. apply find_none_all. intros d Hd.
    destruct (o_name d =? eoi)%N eqn:Hn; [|reflexivity].
    exfalso. rewrite <- not_true_iff_false in H. apply H. apply existsb_exists. exists d.
    split; [exact Hd|]. rewrite Hn. reflexivity.
  Qed.

  Lemma eoi_not_skip : is_skip_name g eoi = false.
  Proof.
    unfold eoi_fresh in Heoi. apply andb_true_iff in Heoi. destruct Heoi as [_ H].
    apply negb_true_iff in H. exact H.
  Qed.

  Lemma eoi_not_mentioned d : In d (g_rules g) -> mentions eoi (o_expr d) = false.
  Proof.
    intros Hd. unfold eoi_fresh in Heoi. apply andb_true_iff in Heoi. destruct Heoi as [H _].
    apply negb_true_iff in H. destruct (mentions eoi (o_expr d)) eqn:Hm; [|reflexivity].
    exfalso. rewrite <- not_true_iff_false in H. apply H. apply existsb_exists. exists d.
    split; [exact Hd|]. rewrite Hm. apply orb_true_r.
  Qed.

  Lemma skip_name_ok x : is_skip_name g x = true -> skip_rule_ok g (Some x) = true.
  Proof.
    unfold is_skip_name, ws_ok in *. apply andb_true_iff in Hws. destruct Hws as [H1 H2].
    intros H. apply orb_true_iff in H. destruct H as [H|H].
    - destruct (g_ws g) as [w|]; [|discriminate]. apply N.eqb_eq in H. subst w. exact H1.
    - destruct (g_comment g) as [c|]; [|discriminate]. apply N.eqb_eq in H. subst c. exact H2.
  Qed.

  Lemma mentioned_callable d x :
    In d (g_rules g) -> mentions x (o_expr d) = true -> callable eoi g x = true.
  Proof.
    intros Hd Hm. unfold callable. apply andb_true_iff. split.
    - apply negb_true_iff. apply N.eqb_neq. intros ->. rewrite (eoi_not_mentioned d Hd) in Hm. discriminate.
    - destruct (is_skip_name g x) eqn:Hs; [|reflexivity]. cbn [negb orb].
      pose proof (skip_name_ok x Hs) as Hok. unfold skip_rule_ok in Hok.
      destruct (lookup_rule (g_rules g) x) as [dx|]; [|reflexivity].
      destruct (o_kind dx); cbn [kind_atomic orb]; try reflexivity; try exact Hok.
      + apply orb_true_iff in Hok. destruct Hok as [Hok|Hok]; [exact Hok|].
        apply negb_true_iff in Hok. rewrite <- not_true_iff_false in Hok. exfalso. apply Hok.
        apply existsb_exists. exists d. split; assumption.
      + apply orb_true_iff in Hok. destruct Hok as [Hok|Hok]; [exact Hok|].
        apply negb_true_iff in Hok. rewrite <- not_true_iff_false in Hok. exfalso. apply Hok.
        apply existsb_exists. exists d. split; assumption.
  Qed.

  Lemma refs_ok_of_mentions e :
    (forall x, mentions x e = true -> callable eoi g x = true) -> refs_ok eoi g e = true.
  Proof.
    induction e; cbn [refs_ok mentions]; intros H; try reflexivity; try (apply IHe; exact H).
    - destruct i; try reflexivity. apply H. apply N.eqb_refl.
    - rewrite IHe1, IHe2; [reflexivity| |]; intros x Hx; apply H; rewrite Hx; [apply orb_true_r|reflexivity].
    - rewrite IHe1, IHe2; [reflexivity| |]; intros x Hx; apply H; rewrite Hx; [apply orb_true_r|reflexivity].
  Qed.

  Lemma bodies_refs_ok r d : lookup_rule (g_rules g) r = Some d -> refs_ok eoi g (o_expr d) = true.
  Proof.
    intros Hl. apply refs_ok_of_mentions. intros x Hx.
    apply (mentioned_callable d x); [apply (lookup_in _ r); exact Hl|exact Hx].
  Qed.

  Lemma callable_call_pre x inh' at_ :
    callable eoi g x = true -> (inh' = true <-> at_ = ANon) -> x <> eoi /\ call_pre g x inh' at_.
  Proof.
    unfold call_pre. intros H Hc. split; [exact (callable_ne x H)|]. apply andb_true_iff in H as [_ H2].
    destruct (is_skip_name g x); [|exact Hc]. cbn [negb orb] in H2.
    destruct (lookup_rule (g_rules g) x) as [d|]; [|exact Logic.I].
    apply orb_true_iff in H2. destruct H2 as [H2|H2]; [left|right; left]; exact H2.
  Qed.

  Lemma skip_call_pre x at_ :
    is_skip_name g x = true -> x <> eoi /\ call_pre g x false at_.
  Proof.
    intros Hs. split.
    - intros ->. rewrite eoi_not_skip in Hs. discriminate.
    - unfold call_pre. rewrite Hs. pose proof (skip_name_ok x Hs) as Hok. unfold skip_rule_ok in Hok.
      destruct (lookup_rule (g_rules g) x) as [d|]; [|exact Logic.I].
      destruct (o_kind d); cbn [kind_atomic]; try (left; reflexivity).
      + right. right. split; [reflexivity|discriminate].
      + right. right. split; [reflexivity|discriminate].
      + right. left. exact Hok.
  Qed.

  Lemma p_call_none R at_ la r pos stk :
    lookup_rule (g_rules g) r = None -> p_call G R at_ la r pos stk = PFail.
  Proof. intros Hl. unfold p_call. cbn [p_rules penv_of]. rewrite Hl. reflexivity. Qed.

  Lemma p_call_eq R at_ la r pos stk d :
    lookup_rule (g_rules g) r = Some d ->
    p_call G R at_ la r pos stk =
    match R (inner_at g at_ r (o_kind d)) la (o_expr d) pos stk with
    | POk pos' stk' toks =>
        POk pos' stk' (if negb la && tok_seen at_ (o_kind d) then [Tok r pos pos' toks] else toks)
    | PFail => PFail
    | PPanic => PPanic
    | PFuel => PFuel
    end.
  Proof.
    intros Hl. unfold p_call. cbn [p_rules penv_of]. rewrite Hl.
    change (is_skip_rule G r) with (is_skip_name g r). unfold inner_at.
    destruct (o_kind d); destruct (R _ la (o_expr d) pos stk); try reflexivity;
      cbn [tok_seen]; destruct la, at_; reflexivity.
  Qed.

  Lemma a_call_some m inhX arg r pos stk d : r <> eoi ->
    lookup_rule (g_rules g) r = Some d ->
    aparse E (S m) inhX (TRule r arg) pos stk =
    match aparse E m (resolve arg inhX) (tr eoi (skip_of_kind (o_kind d)) (o_expr d)) pos stk with
    | AOk (pos', t) stk' =>
        match emis_of_kind (o_kind d) with
        | EmExpr => AOk (pos', NRule r (Some t) None) stk'
        | EmSpan => alift (i_span I pos pos') (fun sp => AOk (pos', NRule r None (Some sp)) stk')
        | EmBoth => alift (i_span I pos pos') (fun sp => AOk (pos', NRule r (Some t) (Some sp)) stk')
        end
    | AFail => AFail
    | APanic => APanic
    | AFuel => AFuel
    end.
  Proof.
    intros Hne Hl. cbn [aparse a_step e_rules env_of]. apply N.eqb_neq in Hne. rewrite Hne, Hl. reflexivity.
  Qed.

  (* two levels of fuel: the call, and the body [TFail] that [env_of] gives an undefined rule *)
  Lemma a_call_none m inhX arg r pos stk : r <> eoi ->
    lookup_rule (g_rules g) r = None ->
    aparse E (S (S m)) inhX (TRule r arg) pos stk = AFail.
  Proof.
    intros Hne Hl. cbn [aparse a_step e_rules env_of]. apply N.eqb_neq in Hne. rewrite Hne, Hl. reflexivity.
  Qed.

  Lemma peek_spans_eq sps : forall pos, p_peek_spans I sps pos = peek_spans E sps pos.
  Proof.
    induction sps as [|sp sps IH]; intros pos; cbn [p_peek_spans peek_spans e_inp env_of]; [reflexivity|].
    destruct (span_str I sp) as [txt|]; cbn [mbind]; [|reflexivity].
    destruct (i_match_string I txt pos) as [[p|]|]; cbn [mbind]; try reflexivity. apply IH.
  Qed.

  Lemma imc_or f f1 f2 pos : (forall c, f c = f1 c || f2 c) ->
    i_match_char I f pos =
    match i_match_char I f1 pos with
    | MOk None => i_match_char I f2 pos
    | r => r
    end.
  Proof.
    intros Hf. unfold i_match_char. destruct (i_get I pos) as [rest|]; cbn [mbind]; [|reflexivity].
    destruct (dec1 rest) as [[c l]|]; [|reflexivity]. rewrite Hf.
    destruct (f1 c), (f2 c); reflexivity.
  Qed.

  Lemma imc_ext f f' pos : (forall c, f c = f' c) -> i_match_char I f pos = i_match_char I f' pos.
  Proof.
    intros Hf. unfold i_match_char. destruct (i_get I pos) as [rest|]; cbn [mbind]; [|reflexivity].
    destruct (dec1 rest) as [[c l]|]; [|reflexivity]. rewrite Hf. reflexivity.
  Qed.

  (* Leaves agree, and no leaf but EOI leaves a token on either side: c = false withdraws the claim. *)
  Definition notoks (c : bool) (t : tnode) (toks : list tok) : Prop := c = true -> tokens E t = [] /\ toks = [].

  Lemma range_agree c f lo hi m inh pos stk :
    (forall ch, f ch = (lo <=? ch)%N && (ch <=? hi)%N) ->
    lagreeP (notoks c) (pchar (i_match_char I f pos) stk) (aparse E (S m) inh (TRange lo hi) pos stk).
  Proof.
    intros Hf. cbn [aparse a_step e_inp env_of].
    match goal with |- context [alift (i_match_char I ?h pos) _] => rewrite (imc_ext f h pos Hf); set (hh := h) end.
    destruct (i_match_char I hh pos) as [[[p ch]|]|]; cbn [pchar plift alift lagreeP].
    - destruct (i_span I pos p) as [sp|]; cbn [alift]; [|left; reflexivity].
      destruct (span_str I sp) as [txt|]; cbn [alift]; [|left; reflexivity].
      destruct (dec1 txt) as [[c' l]|]; [right|left; reflexivity].
      eexists. split; [reflexivity|intros _; split; reflexivity].
    - right. reflexivity.
    - reflexivity.
  Qed.

  Lemma choice_single c f e1 m inh n i pos stk :
    lagreeP (notoks c) (pchar (i_match_char I f pos) stk) (aparse E m inh e1 pos stk) ->
    lagreeP (notoks c) (pchar (i_match_char I f pos) stk) (a_choice (aparse E m) inh n [e1] i pos stk).
  Proof.
    cbn [a_choice]. destruct (i_match_char I f pos) as [[[p ch]|]|]; cbn [pchar plift lagreeP].
    - intros [->|[t [-> Ht]]]; [left; reflexivity|right]. eexists. split; [reflexivity|exact Ht].
    - intros [->| ->]; [left; reflexivity|right; reflexivity].
    - intros ->. reflexivity.
  Qed.

  Lemma choice_cons c f f1 f2 e1 rest m inh n i pos stk :
    (forall ch, f ch = f1 ch || f2 ch) ->
    lagreeP (notoks c) (pchar (i_match_char I f1 pos) stk) (aparse E m inh e1 pos stk) ->
    lagreeP (notoks c) (pchar (i_match_char I f2 pos) stk) (a_choice (aparse E m) inh n rest (S i) pos stk) ->
    lagreeP (notoks c) (pchar (i_match_char I f pos) stk) (a_choice (aparse E m) inh n (e1 :: rest) i pos stk).
  Proof.
    intros Hf. rewrite (imc_or f f1 f2 pos Hf). cbn [a_choice].
    destruct (i_match_char I f1 pos) as [[[p ch]|]|]; cbn [pchar plift lagreeP].
    - intros [->|[t [-> Ht]]] _; [left; reflexivity|right]. eexists. split; [reflexivity|exact Ht].
    - intros [->| ->] H2; [|exact H2].
      destruct (i_match_char I f2 pos) as [[[p ch]|]|]; cbn [pchar plift lagreeP]; try (left; reflexivity); reflexivity.
    - intros -> _. reflexivity.
  Qed.

  Ltac fin :=
    cbn [lagreeP plift alift pleaf pchar aleaf];
    first [reflexivity | left; reflexivity | right; reflexivity
          | right; eexists; split; [reflexivity|intros _; split; reflexivity]].

  Lemma newline_agree c pos stk :
    lagreeP (notoks c) (p_newline G pos stk) (a_newline E newline_bytes pos stk).
  Proof.
    unfold p_newline, newline_bytes. cbn [a_newline p_inp penv_of e_inp env_of].
    unfold i_match_string, pleaf. destruct (i_get I pos) as [rest|]; cbn [mbind plift alift]; [|reflexivity].
    destruct rest as [|b rest]; cbn [is_prefix plift alift lagreeP]; [right; reflexivity|].
    destruct (10 =? b)%N eqn:E10; destruct (13 =? b)%N eqn:E13; cbn [andb plift alift lagreeP].
    - apply N.eqb_eq in E10, E13. congruence.
    - fin.
    - destruct rest as [|b2 rest]; cbn [is_prefix andb plift alift lagreeP]; [fin|].
      destruct (10 =? b2)%N; cbn [andb plift alift lagreeP]; fin.
    - right. reflexivity.
  Qed.

  Definition leaf (e : oexpr) : bool :=
    match e with
    | OStr _ | OInsens _ | ORange _ _ | OPeekSlice _ _ | OSkip _ => true
    | OIdent (IdBuiltin _) | OIdent (IdUnicode _) => true
    | _ => false
    end.

  Definition not_eoi (e : oexpr) : bool :=
    match e with OIdent (IdBuiltin BEoi) => false | _ => true end.

  Ltac stepA := rewrite aparse_S; cbn [a_step e_inp env_of p_inp penv_of length].

  (* 3 is the depth of the deepest built-in, ASCII_ALPHANUMERIC: choice, choice, range *)
  Lemma builtin_agree at_ la b pos stk inh m :
    lagreeP (notoks (not_eoi (OIdent (IdBuiltin b)))) (p_builtin G at_ la b pos stk)
            (aparse E (3 + m) inh (builtin_texpr eoi b) pos stk).
  Proof.
    change (3 + m) with (S (S (S m))).
    destruct b; cbn [builtin_texpr p_builtin p_inp penv_of].
    10-13, 15-16, 19: (apply range_agree; intros ch; reflexivity).
    - (* ANY *) stepA.
      destruct (i_match_char I (fun _ => true) pos) as [[[p ch]|]|]; fin.
    - (* SOI *) stepA. destruct (i_at_start I pos); fin.
    - (* EOI: a token on the typed side, and on the spec's where it makes tokens *)
      stepA. cbn [e_rules env_of]. rewrite N.eqb_refl. cbn [r_body r_emis resolve]. stepA.
      destruct (i_at_end I pos); [|fin].
      destruct (i_span I pos pos); cbn [alift lagreeP]; [right|left; reflexivity].
      eexists. split; [reflexivity|intros H; discriminate H].
    - (* PEEK *) stepA.
      destruct stk as [|sp stk']; [fin|].
      destruct (span_str I sp) as [txt|]; [|fin]. cbn [plift alift].
      destruct (i_match_string I txt pos) as [[p|]|]; try fin.
      cbn [pleaf plift aleaf alift]. destruct (i_span I pos p); fin.
    - (* PEEK_ALL *) stepA. rewrite peek_spans_eq.
      destruct (peek_spans E stk pos) as [[p|]|]; try fin.
      cbn [pleaf plift aleaf alift]. destruct (i_span I pos p); fin.
    - (* POP *) stepA.
      destruct stk as [|sp stk']; [fin|].
      destruct (span_str I sp) as [txt|]; [|fin]. cbn [plift alift].
      destruct (i_match_string I txt pos) as [[p|]|]; fin.
    - (* POP_ALL *) stepA. rewrite peek_spans_eq.
      destruct (peek_spans E stk pos) as [[p|]|]; try fin.
      cbn [pleaf plift aleaf alift]. destruct (i_span I pos p); fin.
    - (* DROP *) stepA. destruct stk as [|sp stk']; fin.
    - (* NEWLINE *) stepA. apply newline_agree.
    - (* ASCII_HEX_DIGIT *) stepA.
      apply (choice_cons _ _ (in_range 48 57) (fun ch => in_range 97 102 ch || in_range 65 70 ch)).
      + intros ch. rewrite orb_assoc. reflexivity.
      + apply range_agree. intros ch. reflexivity.
      + apply (choice_cons _ _ (in_range 97 102) (in_range 65 70)).
        * intros ch. reflexivity.
        * apply range_agree. intros ch. reflexivity.
        * apply choice_single. apply range_agree. intros ch. reflexivity.
    - (* ASCII_ALPHA *) stepA.
      apply (choice_cons _ _ (in_range 97 122) (in_range 65 90)).
      + intros ch. reflexivity.
      + apply range_agree. intros ch. reflexivity.
      + apply choice_single. apply range_agree. intros ch. reflexivity.
    - (* ASCII_ALPHANUMERIC *) stepA.
      apply (choice_cons _ _ (fun ch => in_range 97 122 ch || in_range 65 90 ch) (in_range 48 57)).
      + intros ch. reflexivity.
      + stepA.
        apply (choice_cons _ _ (in_range 97 122) (in_range 65 90)).
        * intros ch. reflexivity.
        * apply range_agree. intros ch. reflexivity.
        * apply choice_single. apply range_agree. intros ch. reflexivity.
      + apply choice_single. apply range_agree. intros ch. reflexivity.
    - (* undefined WHITESPACE / COMMENT *) stepA. fin.
  Qed.

  Lemma leaf_agree R CALL lf at_ la e pos stk k inh m :
    leaf e = true ->
    lagreeP (notoks (not_eoi e)) (p_step G R CALL lf at_ la e pos stk) (aparse E (3 + m) inh (tr eoi k e) pos stk).
  Proof.
    destruct e; cbn [leaf]; try discriminate; intros Hl; change (3 + m) with (S (S (S m))).
    - (* OStr *) cbn [tr p_step]. stepA.
      destruct (i_match_string I s pos) as [[p|]|]; fin.
    - (* OInsens *) cbn [tr p_step]. stepA.
      destruct (i_match_insens I s pos) as [[p|]|]; try fin.
      cbn [pleaf plift aleaf alift]. destruct (i_span I pos p) as [sp|]; [|fin]. cbn [alift].
      destruct (span_str I sp); fin.
    - (* ORange *) cbn [tr p_step p_inp penv_of]. apply range_agree. intros ch. reflexivity.
    - (* OIdent *) destruct i; try discriminate Hl.
      + cbn [tr tr_ident p_step]. apply (builtin_agree at_ la b pos stk inh m).
      + cbn [tr tr_ident p_step]. stepA. cbn [e_pred p_pred env_of penv_of].
        destruct (i_match_char I (pred p) pos) as [[[p' ch]|]|]; fin.
    - (* OPeekSlice *) cbn [tr p_step]. stepA.
      change (a_slice stk a b) with (p_slice stk a b).
      destruct (p_slice stk a b) as [sps|]; [|fin]. rewrite peek_spans_eq.
      destruct (peek_spans E sps pos) as [[p|]|]; try fin.
      cbn [pleaf plift aleaf alift]. destruct (i_span I pos p); fin.
    - (* OSkip *) cbn [tr p_step]. stepA.
      destruct (i_skip_until I true ss pos) as [f p]. destruct (i_span I pos p); fin.
  Qed.

  Lemma flat_not_rule x : flat (OIdent (IdRule x)) = false.
  Proof. reflexivity. Qed.
End Base.
