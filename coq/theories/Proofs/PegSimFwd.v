(* C01 and C02, soundness direction: whatever the PEG spec answers, the typed parser (reference interpreter
   [aparse] on the translated grammar) answers too, given enough fuel -- same verdict, same offset, same
   stack; the typed side may additionally hit one of its debug assertions (APanic).  Where trees are
   compared ([claim]: outside lookahead, the spec non-atomic or atomic inside a quiet WHITESPACE / COMMENT
   body) the tree the typed parser builds exposes, through the Pair API ([tokens]), exactly pest's token
   list with the descendants of atomic / compound-atomic tokens removed ([prune]).  One induction serves
   both: below lookahead and below @ / $ rules the claim about the tree is simply not made. *)
From Coq Require Import List NArith Bool.
From PT Require Import Model.Base Model.Stack Model.Texpr Model.Sem Model.Aparse Model.Tok Model.Tokens.
From PT Require Import Model.Ast Model.Translate Model.PegSpec Model.GenEnv.
From PT Require Import Proofs.FuelFacts Proofs.SkipPositions Proofs.PegSimBase Proofs.PegSimTokBase.
Import ListNotations.

(* the element of a sequence after its leading skip has been done *)
Definition a_seq_mid (E : env) (A : bool -> texpr -> nat -> list span -> ares (nat * tnode)) (lf : nat)
           (b inh : bool) (es : list texpr) (pos : nat) (stk : list span) (skipped : list tnode)
           (acc : list (list tnode * tnode)) : ares (nat * tnode) :=
  match es with
  | [] => AFail
  | e :: es' =>
      match A inh e pos stk with
      | AOk (pos2, t) stk2 => a_seq E A lf b inh es' false pos2 stk2 ((skipped, t) :: acc)
      | AFail => AFail
      | APanic => APanic
      | AFuel => AFuel
      end
  end.

Lemma a_seq_cons E A lf b inh e es first pos stk acc :
  a_seq E A lf b inh (e :: es) first pos stk acc =
  match a_pre_skip E A lf b (negb first) pos stk with
  | AOk (pos1, skipped) stk1 => a_seq_mid E A lf b inh (e :: es) pos1 stk1 skipped acc
  | AFail => AFail
  | APanic => APanic
  | AFuel => AFuel
  end.
Proof. reflexivity. Qed.

Lemma seq_spine_cons eoi k e : exists x xs, seq_spine eoi k e = x :: xs.
Proof. destruct e; cbn [seq_spine]; eauto. Qed.

Lemma a_pre_skip_false E A lf b pos stk :
  a_pre_skip E A lf b false pos stk = AOk (pos, if b then [skip_default E] else []) stk.
Proof. unfold a_pre_skip. destruct b; reflexivity. Qed.

Lemma ws_is_skip g w : g_ws g = Some w -> is_skip_name g w = true.
Proof. intros H. unfold is_skip_name. rewrite H, N.eqb_refl. reflexivity. Qed.

Lemma comment_is_skip g c : g_comment g = Some c -> is_skip_name g c = true.
Proof. intros H. unfold is_skip_name. rewrite H, N.eqb_refl. apply orb_true_r. Qed.

Lemma ctx_sub e e1 k inh at_ : (flat e = true -> flat e1 = true) -> ctx e k inh at_ -> ctx e1 k inh at_.
Proof. unfold ctx. tauto. Qed.

Lemma flag_of_at (flag : bool) at_ : (flag = true <-> at_ = ANon) ->
  flag = match at_ with ANon => true | _ => false end.
Proof.
  intros [H1 H2]. destruct at_, flag; try reflexivity; try exact (H2 eq_refl); discriminate (H1 eq_refl).
Qed.

(* both WHITESPACE and COMMENT are defined: pest runs w-star (c w-star)-star, the typed parser (w | c)-star *)
Definition se2 (w c : N) : texpr := TChoice [TRule w SkOff; TRule c SkOff].

Lemma arep2_S g eoi I pred m1 m2 w c pos stk acc :
  a_arep (aparse (env_of eoi g I pred) (S m1)) (S m2) false (se2 w c) pos stk acc =
  match aparse (env_of eoi g I pred) m1 false (TRule w SkOff) pos stk with
  | AOk (pos', t) stk' =>
      a_arep (aparse (env_of eoi g I pred) (S m1)) m2 false (se2 w c) pos' stk' (NChoice 2 0 t :: acc)
  | AFail =>
      match aparse (env_of eoi g I pred) m1 false (TRule c SkOff) pos stk with
      | AOk (pos', t) stk' =>
          a_arep (aparse (env_of eoi g I pred) (S m1)) m2 false (se2 w c) pos' stk' (NChoice 2 1 t :: acc)
      | AFail => AOk (pos, NAtomicRep (rev acc)) stk
      | APanic => APanic
      | AFuel => AFuel
      end
  | APanic => APanic
  | AFuel => AFuel
  end.
Proof.
  cbn [a_arep]. rewrite aparse_S. unfold se2. cbn [a_step a_choice length].
  destruct (aparse _ m1 false (TRule w SkOff) pos stk) as [[p t] s| | |]; try reflexivity.
  destruct (aparse _ m1 false (TRule c SkOff) pos stk) as [[p t] s| | |]; reflexivity.
Qed.

(* w-star, then (c w-star)-star: pest's implicit skip where both WHITESPACE and COMMENT are defined, and what
   remains of a round of [p_repeat_cw] after its COMMENT *)
Definition p_wcw (C : atomicity -> bool -> N -> nat -> list span -> pres) (lf l1 l2 : nat) (la : bool) (w c : N)
           (pos : nat) (stk : list span) (acc : list tok) (f : list tok -> list tok) : pres :=
  match p_repeat_rule C l1 ANon la w pos stk acc with
  | POk p1 s1 t1 => p_repeat_cw C lf l2 ANon la w c p1 s1 (f t1)
  | r => r
  end.

Lemma p_wcw_S C lf l1 l2 la w c pos stk acc f :
  p_wcw C lf (S l1) l2 la w c pos stk acc f =
  match C ANon la w pos stk with
  | POk p s t => p_wcw C lf l1 l2 la w c p s (acc ++ t) f
  | PFail => p_repeat_cw C lf l2 ANon la w c pos stk (f acc)
  | PPanic => PPanic
  | PFuel => PFuel
  end.
Proof. unfold p_wcw. cbn [p_repeat_rule]. destruct (C ANon la w pos stk); reflexivity. Qed.

(* one step of the typed interpreter: its sub-runs and its loops get the fuel below *)
Lemma ev3_aparse E (F : ares (nat * tnode) -> Prop) inh te pos stk :
  eventually3 (fun m l _ => F (a_step E (aparse E m) l inh te pos stk)) ->
  eventually3 (fun m _ _ => F (aparse E m inh te pos stk)).
Proof.
  intros H. apply ev3_1, ev_S. refine (ev_imp _ _ H _). intros m Hm. exact (Hm m m m (le_n m) (le_n m) (le_n m)).
Qed.

Definition nonspine (e : oexpr) : Prop :=
  match e with OSeq _ _ | OChoice _ _ => False | _ => True end.

Section Sim.
  Variables (g : ogrammar) (eoi : N) (I : inp) (pred : N -> char -> bool).
  Local Notation E := (env_of eoi g I pred).
  Local Notation G := (penv_of eoi g I pred).
  Local Notation TK := (TK g eoi I pred).
  Local Notation acc_toks := (acc_toks g eoi I pred).

  Hypothesis Hws : ws_ok g = true.
  Hypothesis Heoi : eoi_fresh eoi g = true.

  (* W: trees are compared at all (then WHITESPACE / COMMENT have to satisfy [tok_ok]).  With W := False
     this is the plain simulation of verdict, offset and stack. *)
  Variable W : Prop.
  Hypothesis Htok : W -> tok_ok eoi g = true.

  Definition want (la : bool) : Prop := W /\ la = false.
  Definition claim (at_ : atomicity) (la : bool) (e : oexpr) : Prop := want la /\ tctx g at_ e.

  Lemma claim_sub at_ la e e1 : subexp e e1 -> claim at_ la e -> claim at_ la e1.
  Proof. intros Hs [Hw Ht]. exact (conj Hw (tctx_sub g at_ e e1 Hs Ht)). Qed.

  (* the tree of a sequence under construction: what has been accumulated, the skip in front of the
     current element, then the spec's tokens for the rest *)
  Definition SQ (skipped : list tnode) (acc : list (list tnode * tnode)) (t : tnode) (toks : list tok) : Prop :=
    tokens E t = acc_toks acc ++ flat_map (tokens E) skipped ++ map (prune g) toks.

  (* the trees of an implicit skip *)
  Definition SK (sk : list tnode) (toks : list tok) : Prop := flat_map (tokens E) sk = map (prune g) toks.

  Lemma SQ_last skipped acc t toks : TK t toks -> SQ skipped acc (NSeq (rev ((skipped, t) :: acc))) toks.
  Proof.
    unfold PegSimTokBase.TK, SQ. intros H. rewrite tokens_seq, <- H, <- acc_toks_cons. reflexivity.
  Qed.

  Lemma skipped0_toks (b : bool) : flat_map (tokens E) (if b then [skip_default E] else []) = [].
  Proof. destruct b; cbn [flat_map]; [rewrite skip_default_tokens|]; reflexivity. Qed.

  Lemma SQ_first (b : bool) t toks : SQ (if b then [skip_default E] else []) [] t toks -> TK t toks.
  Proof. unfold PegSimTokBase.TK, SQ. rewrite skipped0_toks. exact (fun H => H). Qed.

  (* what is known of the spec interpreter one level down *)
  Definition gs_main (R : atomicity -> bool -> oexpr -> nat -> list span -> pres) : Prop :=
    forall at_ la e pos stk k inh,
      ctx e k inh at_ -> refs_ok eoi g e = true ->
      eventually3 (fun m _ _ =>
            fsimP (fun t toks => claim at_ la e -> TK t toks) (R at_ la e pos stk) (aparse E m inh (tr eoi k e) pos stk)).

  Definition gs_seq (R : atomicity -> bool -> oexpr -> nat -> list span -> pres) : Prop :=
    forall at_ la e pos stk k inh,
      (resolve k inh = true <-> at_ = ANon) -> refs_ok eoi g e = true ->
      eventually3 (fun m l _ => forall skipped acc,
            fsimP (fun t toks => claim at_ la e -> SQ skipped acc t toks) (R at_ la e pos stk)
                  (a_seq_mid E (aparse E m) l (resolve k inh) inh (seq_spine eoi k e) pos stk skipped acc)).

  Definition gs_choice (R : atomicity -> bool -> oexpr -> nat -> list span -> pres) : Prop :=
    forall at_ la e pos stk k inh,
      ctx e k inh at_ -> refs_ok eoi g e = true ->
      eventually3 (fun m _ _ => forall n i,
            fsimP (fun t toks => claim at_ la e -> TK t toks) (R at_ la e pos stk)
                  (a_choice (aparse E m) inh n (choice_spine eoi k e) i pos stk)).

  Section Level.
    Variable R : atomicity -> bool -> oexpr -> nat -> list span -> pres.
    Hypothesis HRm : gs_main R.
    Hypothesis HRs : gs_seq R.
    Hypothesis HRc : gs_choice R.
    Variable lf : nat.

    (* below an @ / $ rule the caller's token has no children: nothing is claimed of the body's tree *)
    Lemma body_sim at_ la r d pos stk inh' :
      call_pre g r inh' at_ -> lookup_rule (g_rules g) r = Some d ->
      eventually3 (fun m _ _ =>
        fsimP (fun t toks => claim at_ la (OIdent (IdRule r)) -> kind_atomic (o_kind d) = false -> TK t toks)
              (R (inner_at g at_ r (o_kind d)) la (o_expr d) pos stk)
              (aparse E m inh' (tr eoi (skip_of_kind (o_kind d)) (o_expr d)) pos stk)).
    Proof.
      intros Hpre Hl.
      refine (ev3_imp _ _ (HRm (inner_at g at_ r (o_kind d)) la (o_expr d) pos stk (skip_of_kind (o_kind d)) inh'
                              (call_ctx g r inh' at_ d Hpre Hl) (bodies_refs_ok g eoi Hws Heoi r d Hl)) _).
      intros m l n H. eapply fsimP_mono; [|exact H]. intros t toks Ht HC Hk. apply Ht.
      split; [exact (proj1 HC)|]. exact (inner_tctx g eoi (Htok (proj1 (proj1 HC))) at_ r d (proj2 HC) Hl Hk).
    Qed.

    Lemma call_sim at_ la r pos stk inhX arg :
      r <> eoi -> call_pre g r (resolve arg inhX) at_ ->
      eventually3 (fun m _ _ => fsimP (fun t toks => claim at_ la (OIdent (IdRule r)) -> TK t toks)
                                      (p_call G R at_ la r pos stk) (aparse E m inhX (TRule r arg) pos stk)).
    Proof.
      intros Hne Hpre. destruct (lookup_rule (g_rules g) r) as [d|] eqn:Hl.
      - rewrite (p_call_eq g eoi I pred R at_ la r pos stk d Hl). apply ev3_S1.
        eapply ev3_imp;
          [|intros m l n H; rewrite (a_call_some g eoi I pred m inhX arg r pos stk d Hne Hl); exact H].
        refine (fsimP_bind0 _ _ _ _ _ _ _ _ (body_sim at_ la r d pos stk _ Hpre Hl) _ _).
        + intros pos' stk' toks _. apply ev3_all. intros m l n t Htk.
          destruct (call_node g eoi I pred r d pos pos' t stk' Hne Hl) as [->|[t' [-> Htt]]];
            [apply fsimP_panic|apply fsimP_ok].
          intros HC. unfold PegSimTokBase.TK. rewrite Htt, (proj2 (proj1 HC)).
          apply call_tokens_match; [exact (proj2 HC)|exact Hl|exact (Htk HC)].
        + intros _. apply ev3_all. intros. right. reflexivity.
      - apply ev3_S1, ev3_S1, ev3_all. intros m _ _.
        rewrite (p_call_none g eoi I pred R at_ la r pos stk Hl), (a_call_none g eoi I pred m inhX arg r pos stk Hne Hl).
        right. reflexivity.
    Qed.

    (* a run of the typed skip loop from an accumulator that shows the spec's tokens so far *)
    Definition AR (la : bool) (se : texpr) (pos : nat) (stk : list span) (acc : list tok) (p : pres) : Prop :=
      eventually3 (fun m l _ => forall tacc,
        fsimP (fun t toks => want la -> flat_map (tokens E) (rev tacc) = map (prune g) acc -> TK t toks)
              p (a_arep (aparse E m) l false se pos stk tacc)).

    Lemma AR_fuel la se pos stk acc : AR la se pos stk acc PFuel.
    Proof. apply ev3_all. intros. exact Logic.I. Qed.

    Lemma skip_call la w pos stk : is_skip_name g w = true ->
      eventually3 (fun m _ _ => fsimP (fun t toks => want la -> TK t toks)
                                      (p_call G R ANon la w pos stk) (aparse E m false (TRule w SkOff) pos stk)).
    Proof.
      intros Hs. destruct (skip_call_pre g eoi Hws Heoi w ANon Hs) as [Hne Hpre].
      refine (ev3_imp _ _ (call_sim ANon la w pos stk false SkOff Hne Hpre) _). intros m l n H.
      eapply fsimP_mono; [|exact H]. intros t toks Ht Hw. exact (Ht (conj Hw (or_introl eq_refl))).
    Qed.

    (* only one of WHITESPACE / COMMENT is defined *)
    Lemma rr_single la w : is_skip_name g w = true -> forall n pos stk acc,
      AR la (TRule w SkOff) pos stk acc (p_repeat_rule (p_call G R) n ANon la w pos stk acc).
    Proof.
      intros Hs. induction n as [|n IH]; intros pos stk acc; cbn [p_repeat_rule]; [apply AR_fuel|].
      apply ev3_S2. cbn [a_arep].
      refine (fsimP_bind _ _ _ _ _ _ _ _ (skip_call la w pos stk Hs) _ _).
      - intros pos' stk' toks _. refine (ev3_imp _ _ (IH pos' stk' (acc ++ toks)) _). intros m l n' H tacc t Htk.
        eapply fsimP_mono; [|exact (H (t :: tacc))]. intros t' toks' H' Hw Hsync.
        exact (H' Hw (arep_toks_cons g eoi I pred t tacc acc toks Hsync (Htk Hw))).
      - intros _. apply ev3_all. intros m l n' tacc. apply fsimP_ok. intros _ Hsync. exact Hsync.
    Qed.

    (* Both are defined: the typed loop runs (w | c)-star, the spec w-star (c w-star)-star, that is a [p_wcw].
       [CW]: what remains of a round of the typed loop once w has failed, against the spec's (c w-star)-star. *)
    Definition CW (la : bool) (w c : N) (l2 : nat) : Prop :=
      forall pos stk acc,
      eventually3 (fun m l _ => forall tacc,
        fsimP (fun t toks => want la -> flat_map (tokens E) (rev tacc) = map (prune g) acc -> TK t toks)
              (p_repeat_cw (p_call G R) lf l2 ANon la w c pos stk acc)
              (match aparse E m false (TRule c SkOff) pos stk with
               | AOk (pos', t) stk' => a_arep (aparse E (S m)) l false (se2 w c) pos' stk' (NChoice 2 1 t :: tacc)
               | AFail => AOk (pos, NAtomicRep (rev tacc)) stk
               | APanic => APanic
               | AFuel => AFuel
               end)).

    (* the typed loop has shown pre ++ acc so far; f is what the spec makes of the tokens of its w-star *)
    Lemma wstar_sim la w c l2 : is_skip_name g w = true -> CW la w c l2 ->
      forall l1 pos stk pre acc f, (forall x, f x = pre ++ x) ->
      AR la (se2 w c) pos stk (pre ++ acc) (p_wcw (p_call G R) lf l1 l2 la w c pos stk acc f).
    Proof.
      intros Hsw Hcw. induction l1 as [|l1 IH]; intros pos stk pre acc f Hf; [apply AR_fuel|].
      rewrite p_wcw_S. apply ev3_S1, ev3_S2.
      eapply ev3_imp; [|intros m l n H tacc; rewrite arep2_S; revert tacc; exact H].
      refine (fsimP_bind _ _ _ _ _ _ _ _ (skip_call la w pos stk Hsw) _ _).
      - intros p s t _. refine (ev3_imp _ _ (ev3_up1 _ (IH p s pre (acc ++ t) f Hf)) _). intros m l n H tacc t0 Htk.
        eapply fsimP_mono; [|exact (H (NChoice 2 0 t0 :: tacc))]. intros t' toks' H' Hw Hsync. apply (H' Hw).
        rewrite app_assoc. exact (arep_toks_cons g eoi I pred (NChoice 2 0 t0) tacc (pre ++ acc) t Hsync (Htk Hw)).
      - intros _. rewrite Hf. exact (Hcw pos stk (pre ++ acc)).
    Qed.

    Lemma cw_sim la w c : is_skip_name g w = true -> is_skip_name g c = true -> forall l2, CW la w c l2.
    Proof.
      intros Hsw Hsc. induction l2 as [|l2 IH]; intros pos stk acc; [apply ev3_all; intros; exact Logic.I|].
      cbn [p_repeat_cw].
      refine (fsimP_bind _ _ _ _ _ _ _ _ (skip_call la c pos stk Hsc) _ _).
      - intros p1 s1 t1 _.
        refine (ev3_imp _ _ (ev3_up1 _ (wstar_sim la w c l2 Hsw IH lf p1 s1 (acc ++ t1) []
                                                   (fun t2 => acc ++ t1 ++ t2) _)) _).
        + intros x. apply app_assoc.
        + intros m l n H tacc t0 Htk. eapply fsimP_mono; [|exact (H (NChoice 2 1 t0 :: tacc))].
          intros t' toks' H' Hw Hsync. apply (H' Hw). rewrite app_nil_r.
          exact (arep_toks_cons g eoi I pred (NChoice 2 1 t0) tacc acc t1 Hsync (Htk Hw)).
      - intros _. apply ev3_all. intros m l n tacc. apply fsimP_ok. intros _ Hsync. exact Hsync.
    Qed.

    Lemma skip_sim la pos stk flag at_ : (flag = true <-> at_ = ANon) ->
      eventually3 (fun m l _ => fsimP (fun sk toks => want la -> SK sk toks)
                             (p_skip G (p_call G R) lf at_ la pos stk) (a_pre_skip E (aparse E m) l flag true pos stk)).
    Proof.
      intros Hc. rewrite (flag_of_at flag at_ Hc).
      assert (Hwrap : forall se p, AR la se pos stk [] p -> e_skip E = SkipRep se ->
                eventually3 (fun m l _ => fsimP (fun sk toks => want la -> SK sk toks) p
                                                (a_pre_skip E (aparse E m) l true true pos stk))).
      { intros se p H Hse. refine (ev3_imp _ _ H _). intros m l n Hm. unfold a_pre_skip, a_skip. rewrite Hse.
        refine (fsimP_tree _ _ (fun t => [t]) _ _ (Hm []) _). intros t toks Htk Hw.
        unfold SK. cbn [flat_map]. rewrite app_nil_r. exact (Htk Hw eq_refl). }
      destruct at_; [|apply ev3_all; intros; apply fsimP_ok; intros _; reflexivity..].
      unfold p_skip. cbn [p_ws p_comment penv_of].
      destruct (g_ws g) as [w|] eqn:Hw, (g_comment g) as [c|] eqn:Hcm.
      - apply (Hwrap (se2 w c)); [|cbn [e_skip env_of]; rewrite Hw, Hcm; reflexivity].
        exact (wstar_sim la w c lf (ws_is_skip g w Hw)
                         (cw_sim la w c (ws_is_skip g w Hw) (comment_is_skip g c Hcm) lf) lf pos stk [] []
                         (fun t => t) (fun x => eq_refl)).
      - apply (Hwrap (TRule w SkOff)); [|cbn [e_skip env_of]; rewrite Hw, Hcm; reflexivity].
        apply rr_single. apply ws_is_skip. exact Hw.
      - apply (Hwrap (TRule c SkOff)); [|cbn [e_skip env_of]; rewrite Hw, Hcm; reflexivity].
        apply rr_single. apply comment_is_skip. exact Hcm.
      - apply ev3_all. intros m l n. unfold a_pre_skip, a_skip. cbn [e_skip env_of]. rewrite Hw, Hcm.
        cbn [skip_of]. apply fsimP_ok. intros _. reflexivity.
    Qed.

    (* one further iteration on the spec's side: the skip, then the element *)
    Definition p_unit (at_ : atomicity) (la : bool) (e : oexpr) (pos : nat) (stk : list span) : pres :=
      match p_skip G (p_call G R) lf at_ la pos stk with
      | POk p1 s1 t1 => tokmap (app t1) (R at_ la e p1 s1)
      | r => r
      end.

    Lemma p_rep_more_S n at_ la e pos stk acc :
      p_rep_more G R (p_call G R) lf (S n) at_ la e pos stk acc =
      match p_unit at_ la e pos stk with
      | POk p s t => p_rep_more G R (p_call G R) lf n at_ la e p s (acc ++ t)
      | PFail => POk pos stk acc
      | PPanic => PPanic
      | PFuel => PFuel
      end.
    Proof.
      cbn [p_rep_more]. unfold p_unit.
      destruct (p_skip G (p_call G R) lf at_ la pos stk) as [p1 s1 t1| | |]; try reflexivity.
      destruct (R at_ la e p1 s1); reflexivity.
    Qed.

    Definition UN (it : list tnode * tnode) (toks : list tok) : Prop :=
      flat_map (tokens E) (fst it) ++ tokens E (snd it) = map (prune g) toks.

    Lemma unit0_sim at_ la e k inh pos stk : ctx e k inh at_ -> refs_ok eoi g e = true ->
      eventually3 (fun m l _ => fsimP (fun it toks => claim at_ la e -> UN it toks) (R at_ la e pos stk)
                             (a_unit E (aparse E m) l (resolve k inh) inh (tr eoi k e) 0 pos stk)).
    Proof.
      intros Hc Hr. refine (ev3_imp _ _ (HRm at_ la e pos stk k inh Hc Hr) _). intros m l n H.
      unfold a_unit. cbn [Nat.eqb negb]. rewrite a_pre_skip_false.
      refine (fsimP_tree _ _ (pair _) _ _ H _). intros t toks Htk HC. unfold UN. cbn [fst snd].
      rewrite skipped0_toks. exact (Htk HC).
    Qed.

    Lemma unit_sim at_ la e k inh i pos stk : (resolve k inh = true <-> at_ = ANon) -> refs_ok eoi g e = true ->
      eventually3 (fun m l _ => fsimP (fun it toks => claim at_ la e -> UN it toks) (p_unit at_ la e pos stk)
                             (a_unit E (aparse E m) l (resolve k inh) inh (tr eoi k e) (S i) pos stk)).
    Proof.
      intros Hc Hr. unfold p_unit, a_unit. cbn [Nat.eqb negb].
      refine (fsimP_bind0 _ _ _ _ _ _ _ _ (skip_sim la pos stk (resolve k inh) at_ Hc) _ _).
      - intros p1 s1 t1 _. refine (ev3_imp _ _ (HRm at_ la e p1 s1 k inh (or_intror Hc) Hr) _).
        intros m l n H sk Hsk. refine (fsimP_map _ _ (app t1) (pair sk) _ _ H _).
        intros t toks Htk HC. unfold UN. cbn [fst snd]. rewrite (Hsk (proj1 HC)), (Htk HC), map_app. reflexivity.
      - intros _. apply ev3_all. intros. right. reflexivity.
    Qed.

    Lemma rep_more_sim at_ la e k inh :
      (resolve k inh = true <-> at_ = ANon) -> refs_ok eoi g e = true ->
      forall n pos stk acc i,
      eventually3 (fun m l n' => forall tacc,
            fsimP (fun t toks => claim at_ la e -> acc_toks tacc = map (prune g) acc -> TK t toks)
                  (p_rep_more G R (p_call G R) lf n at_ la e pos stk acc)
                  (a_rep E (aparse E m) l n' (resolve k inh) inh 0 None (tr eoi k e) (S i) pos stk tacc)).
    Proof.
      intros Hc Hr. induction n as [|n IH]; intros pos stk acc i; [apply ev3_all; intros; exact Logic.I|].
      rewrite p_rep_more_S. apply ev3_S3. cbn [a_rep below].
      refine (fsimP_bind _ _ _ _ _ _ _ _ (unit_sim at_ la e k inh i pos stk Hc Hr) _ _).
      - intros p s t _. refine (ev3_imp _ _ (IH p s (acc ++ t) (S i)) _). intros m l n' H tacc it Hit.
        eapply fsimP_mono; [|exact (H (it :: tacc))]. intros t' toks' H' HC Hsync. apply (H' HC).
        destruct it as [sk t0]. rewrite acc_toks_cons, Hsync, map_app. f_equal. exact (Hit HC).
      - intros _. apply ev3_all. intros m l n' tacc. cbn [Nat.ltb Nat.leb]. apply fsimP_ok.
        intros _ Hsync. exact Hsync.
    Qed.

    Lemma step_nonspine at_ la e pos stk k inh :
      nonspine e -> ctx e k inh at_ -> refs_ok eoi g e = true ->
      eventually3 (fun m _ _ => fsimP (fun t toks => claim at_ la e -> TK t toks)
                             (p_step G R (p_call G R) lf at_ la e pos stk) (aparse E m inh (tr eoi k e) pos stk)).
    Proof.
      intros Hns Hctx Hrefs.
      assert (Hleaf : leaf e = true ->
                eventually3 (fun m _ _ => fsimP (fun t toks => claim at_ la e -> TK t toks)
                        (p_step G R (p_call G R) lf at_ la e pos stk) (aparse E m inh (tr eoi k e) pos stk))).
      { intros Hl. apply ev3_S1, ev3_S1, ev3_S1, ev3_all. intros m _ _.
        apply (leaf_sim g eoi I pred R (p_call G R) lf at_ la e pos stk k inh m); [exact Hl|].
        intros HC. exact (conj (proj2 (proj1 HC)) (proj2 HC)). }
      destruct e; try (apply Hleaf; reflexivity); try (destruct Hns; fail); cbn [refs_ok] in Hrefs.
      - (* OIdent *)
        destruct i; try (apply Hleaf; reflexivity). cbn [p_step tr tr_ident].
        destruct Hctx as [Hf|Hc]; [discriminate Hf|].
        destruct (callable_call_pre g eoi r (resolve k inh) at_ Hrefs Hc) as [Hne Hpre].
        exact (call_sim at_ la r pos stk inh k Hne Hpre).
      - (* OPosPred *)
        cbn [p_step tr]. apply ev3_aparse. cbn [a_step].
        refine (fsimP_bind0 _ _ _ _ _ _ _ _
                  (HRm at_ true e pos stk k inh (ctx_sub _ e k inh at_ (fun H => H) Hctx) Hrefs) _ _).
        + intros p1 s1 t1 _. apply ev3_all. intros m l n t _. apply fsimP_ok. intros _. reflexivity.
        + intros _. apply ev3_all. intros. right. reflexivity.
      - (* ONegPred *)
        cbn [p_step tr]. apply ev3_aparse. cbn [a_step].
        refine (fsimP_bind0 _ _ _ _ _ _ _ _
                  (HRm at_ true e pos stk k inh (ctx_sub _ e k inh at_ (fun H => H) Hctx) Hrefs) _ _).
        + intros p1 s1 t1 _. apply ev3_all. intros. right. reflexivity.
        + intros _. apply ev3_all. intros. apply fsimP_ok. intros _. reflexivity.
      - (* OOpt *)
        cbn [p_step tr]. apply ev3_aparse. cbn [a_step].
        refine (fsimP_bind0 _ _ _ _ _ _ _ _
                  (HRm at_ la e pos stk k inh (ctx_sub _ e k inh at_ (fun H => H) Hctx) Hrefs) _ _).
        + intros p1 s1 t1 _. apply ev3_all. intros m l n t Htk. apply fsimP_ok.
          intros HC. exact (Htk (claim_sub _ _ _ _ (sub_opt e) HC)).
        + intros _. apply ev3_all. intros. apply fsimP_ok. intros _. reflexivity.
      - (* ORep: the first iteration, without skip, then the others *)
        cbn [p_step tr]. destruct Hctx as [Hf|Hc]; [discriminate Hf|]. apply ev3_aparse. cbn [a_step].
        apply (ev3_diag (fun m l n => fsimP _ _ (a_rep E (aparse E m) l n (resolve k inh) inh 0 None (tr eoi k e) 0 pos stk []))).
        apply ev3_S3. cbn [a_rep below].
        refine (fsimP_bind0 _ _ _ _ _ _ _ _ (unit0_sim at_ la e k inh pos stk (or_intror Hc) Hrefs) _ _).
        + intros p1 s1 t1 _. refine (ev3_imp _ _ (rep_more_sim at_ la e k inh Hc Hrefs lf p1 s1 t1 0) _).
          intros m l n H it Hit. eapply fsimP_mono; [|exact (H [it])]. intros t toks Ht HC.
          pose proof (claim_sub _ _ _ _ (sub_rep e) HC) as HCe. apply (Ht HCe).
          destruct it as [sk t0]. rewrite acc_toks_cons. exact (Hit HCe).
        + intros _. apply ev3_all. intros. cbn [Nat.ltb Nat.leb]. apply fsimP_ok. intros _. reflexivity.
      - (* OPush *)
        cbn [p_step tr]. apply ev3_aparse. cbn [a_step].
        refine (fsimP_bind0 _ _ _ _ _ _ _ _
                  (HRm at_ la e pos stk k inh (ctx_sub _ e k inh at_ (fun H => H) Hctx) Hrefs) _ _).
        + intros p1 s1 t1 _. apply ev3_all. intros m l n t Htk. cbn [e_inp env_of]. unfold i_span.
          destruct (slice_opt (parent I) pos p1); cbn [alift]; [apply fsimP_ok|left; reflexivity].
          intros HC. exact (Htk (claim_sub _ _ _ _ (sub_push e) HC)).
        + intros _. apply ev3_all. intros. right. reflexivity.
      - (* ORestore *)
        cbn [p_step tr].
        refine (ev3_imp _ _ (HRm at_ la e pos stk k inh (ctx_sub _ e k inh at_ (fun H => H) Hctx) Hrefs) _).
        intros m l n H. eapply fsimP_mono; [|exact H].
        intros t toks Ht HC. exact (Ht (claim_sub _ _ _ _ (sub_restore e) HC)).
    Qed.

    (* what follows the first element of a sequence on the spec's side: the skip, then the rest *)
    Definition p_tail (at_ : atomicity) (la : bool) (b : oexpr) (pos : nat) (stk : list span) : pres :=
      match p_skip G (p_call G R) lf at_ la pos stk with
      | POk p2 s2 t2 => tokmap (app t2) (R at_ la b p2 s2)
      | r => r
      end.

    Lemma p_seq_eq at_ la a b pos stk :
      p_step G R (p_call G R) lf at_ la (OSeq a b) pos stk =
      match R at_ la a pos stk with
      | POk p1 s1 t1 => tokmap (app t1) (p_tail at_ la b p1 s1)
      | PFail => PFail
      | PPanic => PPanic
      | PFuel => PFuel
      end.
    Proof.
      cbn [p_step]. destruct (R at_ la a pos stk) as [p1 s1 t1| | |]; try reflexivity. unfold p_tail.
      destruct (p_skip G (p_call G R) lf at_ la p1 s1) as [p2 s2 t2| | |]; try reflexivity.
      destruct (R at_ la b p2 s2); reflexivity.
    Qed.

    Lemma tail_sim at_ la a b k inh pos stk :
      (resolve k inh = true <-> at_ = ANon) -> refs_ok eoi g b = true ->
      eventually3 (fun m l _ => forall acc,
            fsimP (fun t toks => claim at_ la (OSeq a b) -> tokens E t = acc_toks acc ++ map (prune g) toks)
                  (p_tail at_ la b pos stk)
                  (a_seq E (aparse E m) l (resolve k inh) inh (seq_spine eoi k b) false pos stk acc)).
    Proof.
      intros Hc Hrb. pose proof (fun p s => HRs at_ la b p s k inh Hc Hrb) as Hb.
      destruct (seq_spine_cons eoi k b) as (x & xs & Hx). rewrite Hx in Hb |- *.
      unfold p_tail. cbn [a_seq negb].
      refine (fsimP_bind _ _ _ _ _ _ _ _ (skip_sim la pos stk (resolve k inh) at_ Hc) _ _).
      - intros p2 s2 t2 _. refine (ev3_imp _ _ (Hb p2 s2) _). intros m l n H acc sk Hsk.
        refine (fsimP_toks _ _ (app t2) _ _ (H sk acc) _). intros t t3 Hq HC.
        rewrite (Hq (claim_sub _ _ _ _ (sub_seq_r a b) HC)), (Hsk (proj1 HC)), map_app. reflexivity.
      - intros _. apply ev3_all. intros. right. reflexivity.
    Qed.

    Lemma seq_step_seq at_ la a b pos stk k inh :
      (resolve k inh = true <-> at_ = ANon) -> refs_ok eoi g (OSeq a b) = true ->
      eventually3 (fun m l _ => forall skipped acc,
            fsimP (fun t toks => claim at_ la (OSeq a b) -> SQ skipped acc t toks)
                  (p_step G R (p_call G R) lf at_ la (OSeq a b) pos stk)
                  (a_seq_mid E (aparse E m) l (resolve k inh) inh (seq_spine eoi k (OSeq a b)) pos stk skipped acc)).
    Proof.
      intros Hc Hrefs. cbn [refs_ok] in Hrefs. apply andb_true_iff in Hrefs. destruct Hrefs as [Hra Hrb].
      rewrite p_seq_eq. cbn [seq_spine a_seq_mid].
      refine (fsimP_bind2 _ _ _ _ _ _ _ _ (HRm at_ la a pos stk k inh (or_intror Hc) Hra) _ _).
      - intros p1 s1 t1 _. refine (ev3_imp _ _ (tail_sim at_ la a b k inh p1 s1 Hc Hrb) _).
        intros m l n H skipped acc t Htk.
        refine (fsimP_toks _ _ (app t1) _ _ (H ((skipped, t) :: acc)) _). intros t' toks Hq HC.
        unfold SQ.
        rewrite (Hq HC), acc_toks_cons, (Htk (claim_sub _ _ _ _ (sub_seq_l a b) HC)), map_app, <- !app_assoc. reflexivity.
      - intros _. apply ev3_all. intros. right. reflexivity.
    Qed.

    Lemma choice_step_choice at_ la a b pos stk k inh :
      ctx (OChoice a b) k inh at_ -> refs_ok eoi g (OChoice a b) = true ->
      eventually3 (fun m _ _ => forall n i,
            fsimP (fun t toks => claim at_ la (OChoice a b) -> TK t toks)
                  (p_step G R (p_call G R) lf at_ la (OChoice a b) pos stk)
                  (a_choice (aparse E m) inh n (choice_spine eoi k (OChoice a b)) i pos stk)).
    Proof.
      intros Hctx Hrefs. cbn [refs_ok] in Hrefs. apply andb_true_iff in Hrefs. destruct Hrefs as [Hra Hrb].
      assert (Hca : ctx a k inh at_).
      { apply (ctx_sub (OChoice a b)); [|exact Hctx]. cbn [flat]. intros H. apply andb_true_iff in H. tauto. }
      assert (Hcb : ctx b k inh at_).
      { apply (ctx_sub (OChoice a b)); [|exact Hctx]. cbn [flat]. intros H. apply andb_true_iff in H. tauto. }
      cbn [p_step choice_spine a_choice].
      refine (fsimP_bind2 _ _ _ _ _ _ _ _ (HRm at_ la a pos stk k inh Hca Hra) _ _).
      - intros p1 s1 t1 _. apply ev3_all. intros m l n0 n i t Htk. apply fsimP_ok.
        intros HC. exact (Htk (claim_sub _ _ _ _ (sub_choice_l a b) HC)).
      - intros _. refine (ev3_imp _ _ (HRc at_ la b pos stk k inh Hcb Hrb) _). intros m l n0 H n i.
        eapply fsimP_mono; [|exact (H n (S i))].
        intros t toks Ht HC. exact (Ht (claim_sub _ _ _ _ (sub_choice_r a b) HC)).
    Qed.

    Lemma main_step : gs_main (p_step G R (p_call G R) lf).
    Proof.
      intros at_ la e pos stk k inh Hctx Hrefs.
      destruct e; try (apply step_nonspine; [exact Logic.I|exact Hctx|exact Hrefs]).
      - (* OSeq *)
        destruct Hctx as [Hf|Hc]; [discriminate Hf|]. rewrite tr_seq. apply ev3_aparse. cbn [a_step].
        refine (ev3_imp _ _ (seq_step_seq at_ la e1 e2 pos stk k inh Hc Hrefs) _). intros m l n H.
        rewrite a_seq_cons. cbn [negb]. rewrite a_pre_skip_false.
        eapply fsimP_mono; [|exact (H _ [])]. intros t toks Hq HC. exact (SQ_first (resolve k inh) t toks (Hq HC)).
      - (* OChoice *)
        rewrite tr_choice. apply ev3_aparse. cbn [a_step].
        refine (ev3_imp _ _ (choice_step_choice at_ la e1 e2 pos stk k inh Hctx Hrefs) _).
        intros m l n H. exact (H _ 0).
    Qed.

    (* the spine of a sequence / choice that is a single element *)
    Lemma seq_step : gs_seq (p_step G R (p_call G R) lf).
    Proof.
      intros at_ la e pos stk k inh Hc Hrefs.
      assert (Hother : seq_spine eoi k e = [tr eoi k e] ->
        eventually3 (fun m l _ => forall skipped acc,
          fsimP (fun t toks => claim at_ la e -> SQ skipped acc t toks) (p_step G R (p_call G R) lf at_ la e pos stk)
                (a_seq_mid E (aparse E m) l (resolve k inh) inh (seq_spine eoi k e) pos stk skipped acc))).
      { intros Hsp. rewrite Hsp. refine (ev3_imp _ _ (main_step at_ la e pos stk k inh (or_intror Hc) Hrefs) _).
        intros m l n H skipped acc. cbn [a_seq_mid a_seq].
        refine (fsimP_tree _ _ (fun t => NSeq (rev ((skipped, t) :: acc))) _ _ H _).
        intros t toks Htk HC. apply SQ_last. exact (Htk HC). }
      destruct e; try (apply Hother; reflexivity).
      apply seq_step_seq; assumption.
    Qed.

    Lemma choice_step : gs_choice (p_step G R (p_call G R) lf).
    Proof.
      intros at_ la e pos stk k inh Hctx Hrefs.
      assert (Hother : choice_spine eoi k e = [tr eoi k e] ->
        eventually3 (fun m _ _ => forall n i,
          fsimP (fun t toks => claim at_ la e -> TK t toks) (p_step G R (p_call G R) lf at_ la e pos stk)
                (a_choice (aparse E m) inh n (choice_spine eoi k e) i pos stk))).
      { intros Hsp. rewrite Hsp. refine (ev3_imp _ _ (main_step at_ la e pos stk k inh Hctx Hrefs) _).
        intros m l n0 H n i. cbn [a_choice].
        refine (fsimP_tree _ _ (NChoice n i) _ _ H _). intros t toks Htk. exact Htk. }
      destruct e; try (apply Hother; reflexivity).
      apply choice_step_choice; assumption.
    Qed.
  End Level.

  Theorem peg_sim : forall n, gs_main (peg G n) /\ gs_seq (peg G n) /\ gs_choice (peg G n).
  Proof.
    induction n as [|n (IHm & IHs & IHc)].
    - repeat split; intros at_ la e pos stk k inh _ _; apply ev3_all; intros; exact Logic.I.
    - repeat split.
      + exact (main_step (peg G n) IHm IHs IHc n).
      + exact (seq_step (peg G n) IHm IHs IHc n).
      + exact (choice_step (peg G n) IHm IHs IHc n).
  Qed.

  (* the entry point: rule r called in non-atomic context, outside lookahead, with an empty stack *)
  Theorem peg_entry_sim r : callable eoi g r = true -> forall n,
    exists m, forall m', m <= m' ->
      fsimP (fun t toks => W -> TK t toks) (peg_entry G n r) (aparse E m' true (TRule r SkOn) (i_start I) []).
  Proof.
    intros Hcall n. apply ev3_1. destruct n as [|n]; cbn [peg_entry]; [apply ev3_all; intros; exact Logic.I|].
    destruct (callable_call_pre g eoi r true ANon Hcall) as [Hne Hpre]; [tauto|].
    refine (ev3_imp _ _ (call_sim (peg G n) (proj1 (peg_sim n)) ANon false r (i_start I) [] true SkOn Hne Hpre) _).
    intros m l n' H. eapply fsimP_mono; [|exact H].
    intros t toks Ht HW. exact (Ht (conj (conj HW eq_refl) (or_introl eq_refl))).
  Qed.
End Sim.

(* W := False: verdict, offset and stack alone (C01). *)
Section Fwd.
  Variables (g : ogrammar) (eoi : N) (I : inp) (pred : N -> char -> bool).
  Local Notation E := (env_of eoi g I pred).
  Local Notation G := (penv_of eoi g I pred).

  Hypothesis Hws : ws_ok g = true.
  Hypothesis Heoi : eoi_fresh eoi g = true.

  Definition fs_main (R : atomicity -> bool -> oexpr -> nat -> list span -> pres) : Prop :=
    forall at_ la e pos stk k inh,
      ctx e k inh at_ -> refs_ok eoi g e = true ->
      exists m, forall m', m <= m' -> fsim (R at_ la e pos stk) (aparse E m' inh (tr eoi k e) pos stk).

  Definition fs_seq (R : atomicity -> bool -> oexpr -> nat -> list span -> pres) : Prop :=
    forall at_ la e pos stk k inh,
      (resolve k inh = true <-> at_ = ANon) -> refs_ok eoi g e = true ->
      exists m, forall m1 m2, m <= m1 -> m <= m2 -> forall skipped acc,
        fsim (R at_ la e pos stk)
             (a_seq_mid E (aparse E m1) m2 (resolve k inh) inh (seq_spine eoi k e) pos stk skipped acc).

  Definition fs_choice (R : atomicity -> bool -> oexpr -> nat -> list span -> pres) : Prop :=
    forall at_ la e pos stk k inh,
      ctx e k inh at_ -> refs_ok eoi g e = true ->
      exists m, forall m1, m <= m1 -> forall n i,
        fsim (R at_ la e pos stk) (a_choice (aparse E m1) inh n (choice_spine eoi k e) i pos stk).

  Theorem peg_fwd : forall n, fs_main (peg G n) /\ fs_seq (peg G n) /\ fs_choice (peg G n).
  Proof.
    intros n. destruct (peg_sim g eoi I pred Hws Heoi False (False_ind _) n) as (Hm & Hs & Hc). repeat split.
    - intros at_ la e pos stk k inh Hctx Hr. apply ev3_1.
      refine (ev3_imp _ _ (Hm at_ la e pos stk k inh Hctx Hr) _). intros m l n' H. exact (fsimP_fsim _ _ _ H).
    - intros at_ la e pos stk k inh Hctx Hr. apply ev3_2.
      refine (ev3_imp _ _ (Hs at_ la e pos stk k inh Hctx Hr) _).
      intros m l n' H skipped acc. exact (fsimP_fsim _ _ _ (H skipped acc)).
    - intros at_ la e pos stk k inh Hctx Hr. apply ev3_1.
      refine (ev3_imp _ _ (Hc at_ la e pos stk k inh Hctx Hr) _).
      intros m l n' H n0 i. exact (fsimP_fsim _ _ _ (H n0 i)).
  Qed.

  Theorem peg_entry_fwd r : callable eoi g r = true -> forall n,
    exists m, forall m', m <= m' ->
      fsim (peg_entry G n r) (aparse E m' true (TRule r SkOn) (i_start I) []).
  Proof.
    intros Hcall n. destruct (peg_entry_sim g eoi I pred Hws Heoi False (False_ind _) r Hcall n) as [m H].
    exists m. intros m' Hle. exact (fsimP_fsim _ _ _ (H m' Hle)).
  Qed.

  (* the implicit skip alone, one level up from any interpreter that is simulated *)
  Lemma skip_fwd R (HRm : fs_main R) lf la pos stk flag at_ : (flag = true <-> at_ = ANon) ->
    exists m, forall m1 m2, m <= m1 -> m <= m2 ->
      fsim (p_skip G (p_call G R) lf at_ la pos stk) (a_pre_skip E (aparse E m1) m2 flag true pos stk).
  Proof.
    intros Hc.
    assert (HR : gs_main g eoi I pred False R).
    { intros a l e p s k inh Hctx Hr. destruct (HRm a l e p s k inh Hctx Hr) as [m H]. apply ev3_1. exists m.
      intros m' Hle. apply fsimP_of_fsim; [exact (H m' Hle)|]. intros ? ? ? ? _ _ [[[] _] _]. }
    destruct (proj1 (ev3_2 _) (skip_sim g eoi I pred Hws Heoi False (False_ind _) R HR lf la pos stk flag at_ Hc))
      as [m H].
    exists m. intros m1 m2 H1 H2. exact (fsimP_fsim _ _ _ (H m1 m2 H1 H2)).
  Qed.
End Fwd.
