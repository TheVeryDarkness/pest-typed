(* C01, completeness direction: whatever the typed parser (reference interpreter [aparse] on the translated
   grammar) answers -- a value or a failure --, the PEG spec answers too, given enough fuel: same verdict, same
   offset, same stack.  In particular the spec cannot run for ever where the typed side ends.  Induction on the
   typed side's fuel; the spec's fuel is chosen existentially ("for all large enough n", [eventually]), and the relation
   [rsim] is carried through the combinators of both interpreters by [rsim_bind]. *)
From Coq Require Import List NArith Arith Bool.
From PT Require Import Model.Base Model.Stack Model.Texpr Model.Sem Model.Aparse Model.Tok.
From PT Require Import Model.Ast Model.Translate Model.PegSpec Model.GenEnv.
From PT Require Import Proofs.FuelFacts Proofs.PegMono Proofs.PegSimBase Proofs.PegSimFwd.
Import ListNotations.

Lemma rsim_fuel {T} p : @rsim T AFuel p.
Proof. exact I. Qed.

Lemma rsim_panic {T} p : @rsim T APanic p.
Proof. exact I. Qed.

Lemma a_arep_nofail A : forall n inh e pos stk acc, a_arep A n inh e pos stk acc <> AFail.
Proof.
  induction n as [|n IH]; intros inh e pos stk acc; cbn [a_arep]; [discriminate|].
  destruct (A inh e pos stk) as [[p t] s| | |]; try discriminate. apply IH.
Qed.

Lemma choice_spine_cons eoi k e : exists x xs, choice_spine eoi k e = x :: xs.
Proof. destruct e; cbn [choice_spine]; eauto. Qed.

Lemma a_seq_spine E A lf b inh eoi k e pos stk acc :
  a_seq E A lf b inh (seq_spine eoi k e) false pos stk acc =
  match a_pre_skip E A lf b true pos stk with
  | AOk (p1, sk) s1 => a_seq_mid E A lf b inh (seq_spine eoi k e) p1 s1 sk acc
  | AFail => AFail
  | APanic => APanic
  | AFuel => AFuel
  end.
Proof. destruct (seq_spine_cons eoi k e) as (x & xs & ->). reflexivity. Qed.

Lemma a_rep_S E A lf n b inh e i pos stk acc :
  a_rep E A lf (S n) b inh 0 None e i pos stk acc =
  match a_pre_skip E A lf b (negb (i =? 0)) pos stk with
  | AOk (p1, sk) s1 =>
      match A inh e p1 s1 with
      | AOk (p2, t) s2 => a_rep E A lf n b inh 0 None e (S i) p2 s2 ((sk, t) :: acc)
      | AFail => AOk (pos, NRep false (rev acc)) stk
      | APanic => APanic
      | AFuel => AFuel
      end
  | AFail => AOk (pos, NRep false (rev acc)) stk
  | APanic => APanic
  | AFuel => AFuel
  end.
Proof.
  cbn [a_rep below]. unfold a_unit.
  destruct (a_pre_skip E A lf b (negb (i =? 0)) pos stk) as [[p1 sk] s1| | |]; try reflexivity.
  destruct (A inh e p1 s1) as [[p2 t] s2| | |]; reflexivity.
Qed.

Lemma rsim_ale {T} (a a' : ares (nat * T)) p : ale a a' -> rsim a' p -> rsim a p.
Proof.
  intros H Hr. destruct a as [[pos t] s| | |]; try exact I; rewrite (H ltac:(discriminate)) in Hr; exact Hr.
Qed.

Lemma rsim_ple {T} (a : ares (nat * T)) p p' : ple p p' -> rsim a p -> rsim a p'.
Proof.
  intros H. destruct a as [[pos t] s| | |]; cbn [rsim]; trivial.
  - intros [toks Hp]. rewrite H by (rewrite Hp; discriminate). eauto.
  - intros Hp. rewrite H by (rewrite Hp; discriminate). exact Hp.
Qed.

(* the typed side repackages the tree (and may panic doing so) *)
Lemma rsim_repack {T U} (a : ares (nat * T)) (ka : nat * T -> list span -> ares (nat * U)) p :
  (forall pos t stk, ka (pos, t) stk = APanic \/ exists u, ka (pos, t) stk = AOk (pos, u) stk) ->
  rsim a p ->
  rsim (match a with AOk x s => ka x s | AFail => AFail | APanic => APanic | AFuel => AFuel end) p.
Proof.
  intros Hk. destruct a as [[pos t] s| | |]; trivial.
  destruct (Hk pos t s) as [->|[u ->]]; trivial. intros; exact I.
Qed.

Lemma rsim_map {T U} (a : ares (nat * T)) (f : T -> U) p :
  rsim a p ->
  rsim (match a with AOk (pos, t) s => AOk (pos, f t) s | AFail => AFail | APanic => APanic | AFuel => AFuel end) p.
Proof. apply rsim_repack. eauto. Qed.

Lemma rsim_retok {T} (a : ares (nat * T)) p (f : nat -> list span -> list tok -> list tok) :
  rsim a p ->
  rsim a (match p with POk pos stk toks => POk pos stk (f pos stk toks) | PFail => PFail
                      | PPanic => PPanic | PFuel => PFuel end).
Proof.
  destruct a as [[pos t] s| | |]; cbn [rsim]; trivial.
  - intros [toks ->]. eauto.
  - intros ->. reflexivity.
Qed.

(* [rsim] is compositional: both interpreters continue a run by a [match] of this shape.  The typed side is a
   fixed value, so the fuel the spec's continuation needs may be chosen after it is known.  [w] stands for
   whatever the spec's continuation carries besides offset and stack (token accumulators): the tokens of the
   run just related are added to it. *)
Lemma rsim_bind {W T U} (a : ares (nat * T)) (p : nat -> pres)
      (ka : nat * T -> list span -> ares (nat * U)) (fa : ares (nat * U))
      (kp : nat -> W -> nat -> list span -> list tok -> pres) (fp : nat -> W -> pres) :
  eventually (fun n => rsim a (p n)) ->
  (forall pos t stk,
     eventually (fun n => forall x : W * list tok, rsim (ka (pos, t) stk) (kp n (fst x) pos stk (snd x)))) ->
  eventually (fun n => forall w, rsim fa (fp n w)) ->
  eventually (fun n => forall w,
    rsim (match a with AOk x s => ka x s | AFail => fa | APanic => APanic | AFuel => AFuel end)
         (match p n with POk pos stk toks => kp n w pos stk toks | PFail => fp n w
                       | PPanic => PPanic | PFuel => PFuel end)).
Proof.
  intros H0 Hk Hf. destruct a as [[pos t] stk| | |]; [| |apply ev_all; intros; exact I..].
  - refine (ev_imp _ _ (ev_and _ _ H0 (Hk pos t stk)) _). intros n [[toks ->] H] w. exact (H (w, toks)).
  - refine (ev_imp _ _ (ev_and _ _ H0 Hf) _). intros n [-> H]. exact H.
Qed.

Lemma rsim_bind0 {T U} (a : ares (nat * T)) (p : nat -> pres)
      (ka : nat * T -> list span -> ares (nat * U)) (fa : ares (nat * U))
      (kp : nat -> nat -> list span -> list tok -> pres) (fp : nat -> pres) :
  eventually (fun n => rsim a (p n)) ->
  (forall pos t stk, eventually (fun n => forall toks, rsim (ka (pos, t) stk) (kp n pos stk toks))) ->
  eventually (fun n => rsim fa (fp n)) ->
  eventually (fun n =>
    rsim (match a with AOk x s => ka x s | AFail => fa | APanic => APanic | AFuel => AFuel end)
         (match p n with POk pos stk toks => kp n pos stk toks | PFail => fp n
                       | PPanic => PPanic | PFuel => PFuel end)).
Proof.
  intros H0 Hk Hf.
  refine (ev_imp _ _ (rsim_bind (W := unit) a p ka fa (fun n _ => kp n) (fun n _ => fp n) H0 _ _) (fun n H => H tt)).
  - intros pos t stk. refine (ev_imp _ _ (Hk pos t stk) _). intros n H x. apply H.
  - refine (ev_imp _ _ Hf _). intros n H _. exact H.
Qed.

Lemma ev_rsim_eq {W T} (a : ares (nat * T)) (p p' : nat -> W -> pres) :
  (forall n w, p n w = p' n w) ->
  eventually (fun n => forall w, rsim a (p' n w)) -> eventually (fun n => forall w, rsim a (p n w)).
Proof. intros Hp H. apply (ev_imp _ _ H). intros n Hn w. rewrite Hp. apply Hn. Qed.

Section Rev.
  Variables (g : ogrammar) (eoi : N) (I : inp) (pred : N -> char -> bool).
  Local Notation E := (env_of eoi g I pred).
  Local Notation G := (penv_of eoi g I pred).

  Hypothesis Hws : ws_ok g = true.
  Hypothesis Heoi : eoi_fresh eoi g = true.

  (* what is known of the typed interpreter with fuel m (fuel-out and panic relate to everything) *)
  Definition rs_main (m : nat) : Prop :=
    forall at_ la e pos stk k inh,
      ctx e k inh at_ -> refs_ok eoi g e = true ->
      eventually (fun n => rsim (aparse E m inh (tr eoi k e) pos stk) (peg G n at_ la e pos stk)).

  Lemma p_call_rsim {T} (a : ares (nat * T)) R at_ la r pos stk d :
    lookup_rule (g_rules g) r = Some d ->
    rsim a (R (inner_at g at_ r (o_kind d)) la (o_expr d) pos stk) -> rsim a (p_call G R at_ la r pos stk).
  Proof. intros Hl H. rewrite (p_call_eq g eoi I pred R at_ la r pos stk d Hl). apply rsim_retok, H. Qed.

  Section Level.
    Variable m : nat.
    Hypothesis HA : rs_main m.

    Lemma sub_rev m1 : m1 <= m -> rs_main m1.
    Proof.
      intros Hle at_ la e pos stk k inh Hc Hr. refine (ev_imp _ _ (HA at_ la e pos stk k inh Hc Hr) _).
      intros n. apply rsim_ale. exact (aparse_mono E m1 m Hle inh _ pos stk).
    Qed.

    Lemma call_rev at_ la r pos stk inh' :
      r <> eoi -> call_pre g r inh' at_ ->
      forall m0 inhX arg, m0 <= S m -> resolve arg inhX = inh' ->
      eventually (fun n => rsim (aparse E m0 inhX (TRule r arg) pos stk) (p_call G (peg G n) at_ la r pos stk)).
    Proof.
      intros Hne Hpre [|m0] inhX arg Hle Hres; [apply ev_all; intros; exact Logic.I|].
      destruct (lookup_rule (g_rules g) r) as [d|] eqn:Hl.
      - rewrite (a_call_some g eoi I pred m0 inhX arg r pos stk d Hne Hl), Hres.
        refine (ev_imp _ _ (sub_rev m0 (le_S_n _ _ Hle) _ la _ pos stk _ inh'
                                (call_ctx g r inh' at_ d Hpre Hl) (bodies_refs_ok g eoi Hws Heoi r d Hl)) _).
        intros n H. apply rsim_repack; [|apply (p_call_rsim _ _ _ _ _ _ _ d Hl), H].
        intros pos' t stk'.
        destruct (emis_of_kind (o_kind d)); try destruct (i_span I pos pos'); cbn [alift]; eauto.
      - apply ev_all. intros n. rewrite (p_call_none g eoi I pred (peg G n) at_ la r pos stk Hl).
        destruct m0 as [|m0]; [exact Logic.I|].
        rewrite (a_call_none g eoi I pred m0 inhX arg r pos stk Hne Hl). reflexivity.
    Qed.

    Lemma skip_call_rev la w pos stk m0 : is_skip_name g w = true -> m0 <= S m ->
      eventually (fun n => rsim (aparse E m0 false (TRule w SkOff) pos stk) (p_call G (peg G n) ANon la w pos stk)).
    Proof.
      intros Hs Hle. destruct (skip_call_pre g eoi Hws Heoi w ANon Hs) as [Hne Hpre].
      apply (call_rev ANon la w pos stk false Hne Hpre m0 false SkOff Hle). reflexivity.
    Qed.

    (* The loops of the spec get the loop fuel the typed loop has: that is enough, and more does not hurt
       (PegMono).  Only the interpretive fuel n is "large enough". *)

    (* only one of WHITESPACE / COMMENT is defined *)
    Lemma rr_single_rev la w : is_skip_name g w = true -> forall m1, m1 <= m -> forall m2 pos stk acc,
      eventually (fun n => forall pacc,
        rsim (a_arep (aparse E m1) m2 false (TRule w SkOff) pos stk acc)
             (p_repeat_rule (p_call G (peg G n)) m2 ANon la w pos stk pacc)).
    Proof.
      intros Hs m1 Hm1. induction m2 as [|m2 IH]; intros pos stk acc; [apply ev_all; intros; exact Logic.I|].
      cbn [a_arep p_repeat_rule].
      apply rsim_bind; [apply skip_call_rev; [exact Hs|exact (le_S _ _ Hm1)]|intros p t s|].
      - refine (ev_imp _ _ (IH p s (t :: acc)) _). intros n H x. apply H.
      - apply ev_all. intros n pacc. cbn [rsim]. eauto.
    Qed.

    (* both are defined: the typed parser runs (w | c)-star, pest w-star (c w-star)-star.  Wherever the typed
       loop stands, what the spec has left to do is a [p_wcw]; x is its accumulator and what becomes of it *)
    Lemma rr2_rev la w c : is_skip_name g w = true -> is_skip_name g c = true -> forall m1, m1 <= m ->
      forall m2 l1 l2 lf, m2 <= l1 -> m2 <= l2 -> m2 <= lf -> forall pos stk acc,
      eventually (fun n => forall x : list tok * (list tok -> list tok),
        rsim (a_arep (aparse E m1) m2 false (se2 w c) pos stk acc)
             (p_wcw (p_call G (peg G n)) lf l1 l2 la w c pos stk (fst x) (snd x))).
    Proof.
      intros Hsw Hsc [|m1] Hm1; [intros [|m2]; intros; apply ev_all; intros; exact Logic.I|].
      apply le_S, Nat.lt_le_incl in Hm1.
      induction m2 as [|m2 IH]; intros l1 l2 lf H1 H2 H3 pos stk acc; [apply ev_all; intros; exact Logic.I|].
      destruct l1 as [|l1]; [destruct (Nat.nle_succ_0 _ H1)|].
      destruct l2 as [|l2]; [destruct (Nat.nle_succ_0 _ H2)|].
      apply le_S_n in H1, H2. apply Nat.lt_le_incl in H3.
      rewrite (arep2_S g eoi I pred m1 m2 w c pos stk acc).
      apply (ev_rsim_eq _ _ _ (fun n x => p_wcw_S _ _ _ _ _ _ _ _ _ _ _)).
      apply rsim_bind; [apply skip_call_rev; assumption|intros p t s|].
      - (* WHITESPACE matched *)
        refine (ev_imp _ _ (IH l1 (S l2) lf H1 (le_S _ _ H2) H3 p s (NChoice 2 0 t :: acc)) _).
        intros n H x. exact (H (fst (fst x) ++ snd x, snd (fst x))).
      - cbn [p_repeat_cw].
        apply rsim_bind; [apply skip_call_rev; assumption|intros p t s|].
        + (* COMMENT matched: w-star (c w-star)-star again *)
          refine (ev_imp _ _ (IH lf l2 lf H3 H2 H3 p s (NChoice 2 1 t :: acc)) _).
          intros n H x. exact (H ([], fun t2 => snd (fst x) (fst (fst x)) ++ snd x ++ t2)).
        + (* neither: the end *)
          apply ev_all. intros n x. cbn [rsim]. eauto.
    Qed.

    Lemma skip_exact la pos stk flag at_ m1 m2 : (flag = true <-> at_ = ANon) -> m1 <= m ->
      eventually (fun n => rsim (a_pre_skip E (aparse E m1) m2 flag true pos stk)
                        (p_skip G (p_call G (peg G n)) m2 at_ la pos stk)).
    Proof.
      intros Hc Hm1. rewrite (flag_of_at _ _ Hc).
      destruct at_; [|apply ev_all; intros; cbn; eauto..].
      unfold p_skip, a_pre_skip, a_skip. cbn [p_ws p_comment penv_of e_skip env_of].
      destruct (g_ws g) as [w|] eqn:Hw, (g_comment g) as [c|] eqn:Hcm; cbn [skip_of].
      - exact (ev_imp _ _ (rr2_rev la w c (ws_is_skip g w Hw) (comment_is_skip g c Hcm) m1 Hm1 m2 m2 m2 m2
                                   (le_n _) (le_n _) (le_n _) pos stk [])
                          (fun n H => rsim_map _ _ _ (H ([], fun t => t)))).
      - exact (ev_imp _ _ (rr_single_rev la w (ws_is_skip g w Hw) m1 Hm1 m2 pos stk [])
                          (fun n H => rsim_map _ _ _ (H []))).
      - exact (ev_imp _ _ (rr_single_rev la c (comment_is_skip g c Hcm) m1 Hm1 m2 pos stk [])
                          (fun n H => rsim_map _ _ _ (H []))).
      - apply ev_all. intros n. cbn [rsim]. eauto.
    Qed.

    Lemma skip_rev la pos stk flag at_ m1 m2 : (flag = true <-> at_ = ANon) -> m1 <= m ->
      exists n, forall n' l, n <= n' -> n <= l ->
        rsim (a_pre_skip E (aparse E m1) m2 flag true pos stk) (p_skip G (p_call G (peg G n')) l at_ la pos stk).
    Proof.
      intros Hc Hm1. destruct (skip_exact la pos stk flag at_ m1 m2 Hc Hm1) as [k Hk].
      exists (Nat.max k m2). intros n' l Hn Hl. refine (rsim_ple _ _ _ _ (Hk n' (Nat.max_lub_l _ _ _ Hn))).
      apply p_skip_mono; [intros; apply upto_refl|exact (Nat.max_lub_r _ _ _ Hl)].
    Qed.

    Lemma rep_more_rev at_ la e k inh : (resolve k inh = true <-> at_ = ANon) -> refs_ok eoi g e = true ->
      forall m1 m2, m1 <= m -> forall m3 i pos stk tacc,
      eventually (fun n => forall acc,
        rsim (a_rep E (aparse E m1) m2 m3 (resolve k inh) inh 0 None (tr eoi k e) (S i) pos stk tacc)
             (p_rep_more G (peg G n) (p_call G (peg G n)) m2 m3 at_ la e pos stk acc)).
    Proof.
      intros Hc Hr m1 m2 Hm1. induction m3 as [|m3 IH]; intros i pos stk tacc; [apply ev_all; intros; exact Logic.I|].
      rewrite a_rep_S. cbn [p_rep_more Nat.eqb negb].
      apply rsim_bind; [apply skip_exact; assumption|intros p1 sk s1|apply ev_all; intros; cbn [rsim]; eauto].
      apply rsim_bind; [apply (sub_rev m1 Hm1); [right; exact Hc|exact Hr]|intros p2 t s2
                       |apply ev_all; intros; cbn [rsim]; eauto].
      refine (ev_imp _ _ (IH (S i) p2 s2 ((sk, t) :: tacc)) _). intros n H x. apply H.
    Qed.

    Lemma rep_rev at_ la e k inh pos stk : (resolve k inh = true <-> at_ = ANon) -> refs_ok eoi g e = true ->
      forall m3,
      eventually (fun n => rsim (a_rep E (aparse E m) m m3 (resolve k inh) inh 0 None (tr eoi k e) 0 pos stk [])
                        (p_step G (peg G n) (p_call G (peg G n)) n at_ la (ORep e) pos stk)).
    Proof.
      intros Hc Hrefs [|m3]; [apply ev_all; intros; exact Logic.I|].
      rewrite a_rep_S. cbn [Nat.eqb negb p_step]. rewrite a_pre_skip_false.
      apply rsim_bind0; [apply HA; [right; exact Hc|exact Hrefs]|intros p1 t1 s1
                        |apply ev_all; intros; cbn [rsim]; eauto].
      refine (ev_imp _ _ (ev_and _ _ (ev_ge (Nat.max m m3))
                                   (rep_more_rev at_ la e k inh Hc Hrefs m m (le_n _) m3 0 p1 s1 _)) _).
      intros n [Hn H] toks. refine (rsim_ple _ _ _ _ (H toks)).
      apply p_rep_more_mono; [intros; apply upto_refl|intros; apply upto_refl
                             |exact (Nat.max_lub_l _ _ _ Hn)|exact (Nat.max_lub_r _ _ _ Hn)].
    Qed.

    (* neither flattened (Seq / Choice) nor transparent (Restore) *)
    Definition plain (e : oexpr) : Prop :=
      match e with OSeq _ _ | OChoice _ _ | ORestore _ => False | _ => True end.

    Lemma step_plain_rev at_ la e pos stk k inh :
      plain e -> ctx e k inh at_ -> refs_ok eoi g e = true ->
      eventually (fun n => rsim (aparse E (S m) inh (tr eoi k e) pos stk) (peg G n at_ la e pos stk)).
    Proof.
      intros Hns Hctx Hrefs. apply ev_S.
      destruct (leaf e) eqn:Hl.
      { apply ev_all. intros n.
        apply (rsim_ale _ _ _ (aparse_mono E (S m) (3 + m) (le_S _ _ (le_S _ _ (le_n _))) inh _ pos stk)).
        apply lagree_rsim. eapply lagreeP_lagree, leaf_agree, Hl. }
      assert (Hsub : forall la' e1, (flat e = true -> flat e1 = true) -> refs_ok eoi g e1 = true ->
                eventually (fun n => rsim (aparse E m inh (tr eoi k e1) pos stk) (peg G n at_ la' e1 pos stk))).
      { intros la' e1 Hf Hr. exact (HA at_ la' e1 pos stk k inh (ctx_sub _ e1 k inh at_ Hf Hctx) Hr). }
      destruct e as [| | |[r| |]| | | | | | | | | |]; try discriminate Hl; try (destruct Hns; fail);
        cbn [refs_ok] in Hrefs; cbn [tr tr_ident peg p_step aparse a_step].
      - (* OIdent *)
        destruct Hctx as [Hf|Hc]; [discriminate Hf|].
        destruct (callable_call_pre g eoi r (resolve k inh) at_ Hrefs Hc) as [Hne Hpre].
        exact (call_rev at_ la r pos stk (resolve k inh) Hne Hpre (S m) inh k (le_n _) eq_refl).
      - (* OPosPred *)
        apply rsim_bind0; [apply Hsub; trivial|intros; apply ev_all; intros; cbn [rsim]; eauto
                          |apply ev_all; reflexivity].
      - (* ONegPred *)
        apply rsim_bind0; [apply Hsub; trivial|intros; apply ev_all; reflexivity
                          |apply ev_all; intros; cbn [rsim]; eauto].
      - (* OOpt *)
        apply rsim_bind0; [apply Hsub; trivial|intros; apply ev_all; intros; cbn [rsim]; eauto..].
      - (* ORep *)
        destruct Hctx as [Hf|Hc]; [discriminate Hf|]. exact (rep_rev at_ la e k inh pos stk Hc Hrefs m).
      - (* OPush *)
        apply rsim_bind0; [apply Hsub; trivial|intros p1 t1 s1|apply ev_all; reflexivity].
        apply ev_all. intros n toks. cbn [e_inp env_of]. unfold i_span.
        destruct (slice_opt (parent I) pos p1); cbn [alift rsim]; eauto.
    Qed.

    (* the flattened right spines: all elements run on the same typed fuel, while the spec descends a level each *)
    Lemma seq_rev : forall e m1 m2, m1 <= m -> forall at_ la pos stk k inh skipped acc,
      (resolve k inh = true <-> at_ = ANon) -> refs_ok eoi g e = true ->
      eventually (fun n => rsim (a_seq_mid E (aparse E m1) m2 (resolve k inh) inh (seq_spine eoi k e) pos stk skipped acc)
                        (peg G n at_ la e pos stk)).
    Proof.
      intros e m1 m2 Hm1.
      (* but for OSeq, the spine is the translation itself *)
      induction e as [s|s|lo hi|i|a b|e IH|e IH|a IHa b IHb|a IHa b IHb|e IH|e IH|ss|e IH|e IH];
        intros at_ la pos stk k inh skipped acc Hc Hrefs;
        try (cbn [seq_spine a_seq_mid a_seq];
             exact (ev_imp _ _ (sub_rev m1 Hm1 at_ la _ pos stk k inh (or_intror Hc) Hrefs) (fun n => rsim_map _ _ _))).
      cbn [refs_ok] in Hrefs. apply andb_true_iff in Hrefs. destruct Hrefs as [Hra Hrb].
      apply ev_S. cbn [seq_spine a_seq_mid peg p_step].
      apply rsim_bind0; [apply (sub_rev m1 Hm1); [right; exact Hc|exact Hra]|intros p1 t1 s1
                        |apply ev_all; reflexivity].
      rewrite a_seq_spine.
      apply rsim_bind; [exact (ev_diag _ (skip_rev la p1 s1 _ at_ m1 m2 Hc Hm1))|intros p2 sk s2
                       |apply ev_all; reflexivity].
      refine (ev_imp _ _ (IHb at_ la p2 s2 k inh sk ((skipped, t1) :: acc) Hc Hrb) _).
      intros n H x. apply rsim_retok, H.
    Qed.

    Lemma choice_rev : forall e m1, m1 <= m -> forall at_ la pos stk k inh n i,
      ctx e k inh at_ -> refs_ok eoi g e = true ->
      eventually (fun n' => rsim (a_choice (aparse E m1) inh n (choice_spine eoi k e) i pos stk) (peg G n' at_ la e pos stk)).
    Proof.
      intros e m1 Hm1.
      (* but for OChoice, the spine is the translation itself *)
      induction e as [s|s|lo hi|i|a b|e IH|e IH|a IHa b IHb|a IHa b IHb|e IH|e IH|ss|e IH|e IH];
        intros at_ la pos stk k inh n i0 Hctx Hrefs;
        try (cbn [choice_spine a_choice];
             exact (ev_imp _ _ (sub_rev m1 Hm1 at_ la _ pos stk k inh Hctx Hrefs) (fun n' => rsim_map _ _ _))).
      cbn [refs_ok] in Hrefs. apply andb_true_iff in Hrefs. destruct Hrefs as [Hra Hrb].
      assert (Hsub : forall e1, In e1 [a; b] -> ctx e1 k inh at_).
      { intros e1 He1. apply (ctx_sub (OChoice a b)); [|exact Hctx]. cbn [flat]. intros H.
        apply andb_true_iff in H. destruct H, He1 as [<-|[<-|[]]]; assumption. }
      apply ev_S. cbn [choice_spine a_choice peg p_step].
      apply rsim_bind0; [apply (sub_rev m1 Hm1); [apply Hsub; left; reflexivity|exact Hra]
                        |intros; apply ev_all; intros; cbn [rsim]; eauto|].
      apply IHb; [apply Hsub; right; left; reflexivity|exact Hrb].
    Qed.

    Lemma main_step_rev : rs_main (S m).
    Proof.
      intros at_ la e. revert at_ la.
      induction e as [s|s|lo hi|i|a b|e IH|e IH|a IHa b IHb|a IHa b IHb|e IH|e IH|ss|e IH|e IH];
        intros at_ la pos stk k inh Hctx Hrefs;
        try (apply step_plain_rev; [exact Logic.I|exact Hctx|exact Hrefs]).
      - (* OSeq *)
        destruct Hctx as [Hf|Hc]; [discriminate Hf|].
        rewrite tr_seq, aparse_S. cbn [a_step]. rewrite a_seq_cons. cbn [negb]. rewrite a_pre_skip_false.
        exact (seq_rev (OSeq a b) m m (le_n _) at_ la pos stk k inh _ [] Hc Hrefs).
      - (* OChoice *)
        rewrite tr_choice, aparse_S. cbn [a_step].
        exact (choice_rev (OChoice a b) m (le_n _) at_ la pos stk k inh _ 0 Hctx Hrefs).
      - (* ORestore: transparent on the typed side, one level in the spec *)
        apply ev_S. cbn [tr peg p_step]. cbn [refs_ok] in Hrefs.
        exact (IH at_ la pos stk k inh (ctx_sub _ e k inh at_ (fun H => H) Hctx) Hrefs).
    Qed.
  End Level.

  Theorem peg_rev_all : forall m, rs_main m.
  Proof.
    induction m as [|m IH].
    - intros at_ la e pos stk k inh _ _. apply ev_all. intros; exact Logic.I.
    - exact (main_step_rev m IH).
  Qed.

  (* the statement with its (superfluous) premises: the typed run ends *)
  Theorem peg_rev : forall m at_ la e pos stk k inh,
    ctx e k inh at_ -> refs_ok eoi g e = true ->
    aparse E m inh (tr eoi k e) pos stk <> AFuel -> aparse E m inh (tr eoi k e) pos stk <> APanic ->
    exists n, forall n', n <= n' -> rsim (aparse E m inh (tr eoi k e) pos stk) (peg G n' at_ la e pos stk).
  Proof. intros m at_ la e pos stk k inh Hc Hr _ _. exact (peg_rev_all m at_ la e pos stk k inh Hc Hr). Qed.

  (* the entry point: rule r called in non-atomic context, outside lookahead, with an empty stack *)
  Theorem peg_entry_rev' r : callable eoi g r = true -> forall m,
    exists n, forall n', n <= n' -> rsim (aparse E m true (TRule r SkOn) (i_start I) []) (peg_entry G n' r).
  Proof.
    intros Hcall m.
    destruct (callable_call_pre g eoi r true ANon Hcall) as [Hne Hpre]; [tauto|].
    apply ev_S.
    exact (call_rev m (peg_rev_all m) ANon false r (i_start I) [] true Hne Hpre m true SkOn
                    (le_S _ _ (le_n _)) eq_refl).
  Qed.

  Theorem peg_entry_rev r : callable eoi g r = true -> forall m,
    aparse E m true (TRule r SkOn) (i_start I) [] <> AFuel -> aparse E m true (TRule r SkOn) (i_start I) [] <> APanic ->
    exists n, forall n', n <= n' -> rsim (aparse E m true (TRule r SkOn) (i_start I) []) (peg_entry G n' r).
  Proof. intros Hcall m _ _. exact (peg_entry_rev' r Hcall m). Qed.

  (* what the premises buy: the spec run ENDS, with a value or a failure *)
  Corollary peg_entry_ends r : callable eoi g r = true -> forall m,
    aparse E m true (TRule r SkOn) (i_start I) [] <> AFuel -> aparse E m true (TRule r SkOn) (i_start I) [] <> APanic ->
    exists n, forall n', n <= n' -> peg_entry G n' r <> PFuel /\ peg_entry G n' r <> PPanic.
  Proof.
    intros Hcall m Hf Hp. refine (ev_imp _ _ (peg_entry_rev' r Hcall m) _). intros n Hn.
    destruct (aparse E m true (TRule r SkOn) (i_start I) []) as [[p t] s| | |]; cbn [rsim] in Hn; try congruence.
    - destruct Hn as [toks ->]. split; discriminate.
    - rewrite Hn. split; discriminate.
  Qed.
End Rev.
