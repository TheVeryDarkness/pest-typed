(* C02: whenever the PEG spec (pest) succeeds, the tree the typed parser builds exposes, through the Pair API
   ([tokens]), exactly pest's token list with the descendants of atomic / compound-atomic tokens removed
   ([prune]) -- unless the typed side hits one of its debug assertions (APanic).  This is the simulation of
   PegSimFwd.v with trees compared, read at the entry point. *)
From Coq Require Import List ZArith.
From PT Require Import Model.Base Model.Stack Model.Texpr Model.Sem Model.Aparse Model.Tok Model.Tokens.
From PT Require Import Model.Ast Model.PegSpec Model.GenEnv.
From PT Require Import Proofs.PegMono Proofs.PegSimBase Proofs.PegSimTokBase Proofs.PegSimFwd.
Import ListNotations.

Theorem peg_entry_fwd_tok g eoi I pred :
  ws_ok g = true -> eoi_fresh eoi g = true -> tok_ok eoi g = true ->
  forall r, callable eoi g r = true -> forall n pos stk toks,
  peg_entry (penv_of eoi g I pred) n r = POk pos stk toks ->
  exists m, forall m', m <= m' ->
    aparse (env_of eoi g I pred) m' true (TRule r SkOn) (i_start I) [] = APanic \/
    exists t, aparse (env_of eoi g I pred) m' true (TRule r SkOn) (i_start I) [] = AOk (pos, t) stk /\
              tokens (env_of eoi g I pred) t = map (prune g) toks.
Proof.
  intros Hws Heoi Htok r Hc n pos stk toks Hp.
  destruct (peg_entry_sim g eoi I pred Hws Heoi True (fun _ => Htok) r Hc n) as [m Hm].
  exists m. intros m' Hle. specialize (Hm m' Hle). rewrite Hp in Hm.
  destruct Hm as [Hm|[t [Hm Htk]]]; [left; exact Hm|right]. exists t. split; [exact Hm|exact (Htk Logic.I)].
Qed.

(* read with any fuel on which the typed side ends with a tree (fuel monotonicity, PegMono.v) *)
Corollary typed_tokens_are_pest g eoi I pred :
  ws_ok g = true -> eoi_fresh eoi g = true -> tok_ok eoi g = true ->
  forall r, callable eoi g r = true -> forall n pos stk toks,
  peg_entry (penv_of eoi g I pred) n r = POk pos stk toks ->
  forall m pos' t stk',
  aparse (env_of eoi g I pred) m true (TRule r SkOn) (i_start I) [] = AOk (pos', t) stk' ->
  pos' = pos /\ stk' = stk /\ tokens (env_of eoi g I pred) t = map (prune g) toks.
Proof.
  intros Hws Heoi Htok r Hc n pos stk toks Hp m pos' t stk' Ha.
  destruct (peg_entry_fwd_tok g eoi I pred Hws Heoi Htok r Hc n pos stk toks Hp) as [m0 H0].
  specialize (H0 (Nat.max m m0) (Nat.le_max_r m m0)).
  rewrite (aparse_mono (env_of eoi g I pred) m (Nat.max m m0) (Nat.le_max_l m m0) true (TRule r SkOn) (i_start I) [])
    in H0 by (rewrite Ha; discriminate).
  rewrite Ha in H0. destruct H0 as [H0|[t0 [H0 Htk]]]; [discriminate H0|].
  inversion H0; subst. repeat split. exact Htk.
Qed.

(* The statement is not vacuous, and the side condition is needed. *)
From PT Require Import Proofs.GenWitness.

(* both token lists for entry rule r on input s: (pest's, what the Pair API shows) *)
Definition tok_pair (g : ogrammar) (s : list byte) (r : N) (fuel : nat) : option (list tok * list tok) :=
  let E := env_of 0 g (inp_of_str s) no_pred in
  match peg_entry (penv_of 0 g (inp_of_str s) no_pred) fuel r, aparse E fuel true (TRule r SkOn) 0 [] with
  | POk pos stk toks, AOk (pos', t) stk' =>
      if (pos =? pos')%nat then Some (toks, tokens E t) else None
  | _, _ => None
  end.

(* main = { "a" ~ comp ~ &inner ~ inner ~ EOI }   comp = ${ inner ~ inner }   inner = { "x" }
   WHITESPACE = { " " }   on "a xx  x " : a non-silent WHITESPACE, a $ rule with inner rules (pruned),
   a predicate containing a rule (no token), EOI (a token) *)
Definition tx_g : ogrammar :=
  mk_ogrammar
    [ mk_orule 1 KNormal
        (OSeq (OStr [97%N]) (OSeq (OIdent (IdRule 2)) (OSeq (OPosPred (OIdent (IdRule 3)))
              (OSeq (OIdent (IdRule 3)) (OIdent (IdBuiltin BEoi))))));
      mk_orule 2 KCompound (OSeq (OIdent (IdRule 3)) (OIdent (IdRule 3)));
      mk_orule 3 KNormal (OStr [120%N]);
      mk_orule 4 KNormal (OStr [32%N]) ]
    (Some 4%N) None.
Definition tx_in : list byte := [97; 32; 120; 120; 32; 32; 120; 32]%N.

Example tok_example :
  ws_ok tx_g = true /\ eoi_fresh 0 tx_g = true /\ tok_ok 0 tx_g = true /\ callable 0 tx_g 1 = true /\
  tok_pair tx_g tx_in 1 40 =
    Some ([Tok 1 0 8 [Tok 4 1 2 []; Tok 2 2 4 [Tok 3 2 3 []; Tok 3 3 4 []]; Tok 4 4 5 []; Tok 4 5 6 [];
                      Tok 3 6 7 []; Tok 4 7 8 []; Tok 0 8 8 []]],
          [Tok 1 0 8 [Tok 4 1 2 []; Tok 2 2 4 []; Tok 4 4 5 []; Tok 4 5 6 [];
                      Tok 3 6 7 []; Tok 4 7 8 []; Tok 0 8 8 []]]) /\
  match tok_pair tx_g tx_in 1 40 with
  | Some (pest, typed) => typed = map (prune tx_g) pest
  | None => False
  end.
Proof. vm_compute. repeat split. Qed.

(* WHITESPACE = { bang | " " }  bang = !{ "(" ~ inner ~ ")" }  COMMENT = { "#" ~ cmp }  cmp = ${ "x" ~ inner }
   inner = { "y" }  main = { "a" ~ "b"* } : both skip rules non-silent with quiet, non-flat bodies (a ! rule
   brings skipping and tokens back inside WHITESPACE; a $ rule inside COMMENT is pruned) *)
Definition tx_g2 : ogrammar :=
  mk_ogrammar
    [ mk_orule 1 KNormal (OSeq (OStr [97%N]) (ORep (OStr [98%N])));
      mk_orule 2 KNonAtomic (OSeq (OStr [40%N]) (OSeq (OIdent (IdRule 3)) (OStr [41%N])));
      mk_orule 3 KNormal (OStr [121%N]);
      mk_orule 4 KNormal (OChoice (OIdent (IdRule 2)) (OStr [32%N]));
      mk_orule 5 KNormal (OSeq (OStr [35%N]) (OIdent (IdRule 6)));
      mk_orule 6 KCompound (OSeq (OStr [120%N]) (OIdent (IdRule 3))) ]
    (Some 4%N) (Some 5%N).
Definition tx_in2 : list byte := [97; 40; 32; 121; 41; 32; 35; 120; 121; 32; 98; 35; 120; 121; 98]%N.  (* "a( y) #xy b#xyb" *)

Example tok_example2 :
  ws_ok tx_g2 = true /\ eoi_fresh 0 tx_g2 = true /\ tok_ok 0 tx_g2 = true /\ callable 0 tx_g2 1 = true /\
  tok_pair tx_g2 tx_in2 1 60 =
    Some ([Tok 1 0 15 [Tok 4 1 5 [Tok 2 1 5 [Tok 4 2 3 []; Tok 3 3 4 []]]; Tok 4 5 6 [];
                       Tok 5 6 9 [Tok 6 7 9 [Tok 3 8 9 []]]; Tok 4 9 10 []; Tok 5 11 14 [Tok 6 12 14 [Tok 3 13 14 []]]]],
          [Tok 1 0 15 [Tok 4 1 5 [Tok 2 1 5 [Tok 4 2 3 []; Tok 3 3 4 []]]; Tok 4 5 6 [];
                       Tok 5 6 9 [Tok 6 7 9 []]; Tok 4 9 10 []; Tok 5 11 14 [Tok 6 12 14 []]]]) /\
  match tok_pair tx_g2 tx_in2 1 60 with
  | Some (pest, typed) => typed = map (prune tx_g2) pest
  | None => False
  end.
Proof. vm_compute. repeat split. Qed.

(* [tok_ok] is needed: GenWitness.wg2 (WHITESPACE = { inner }, inner a normal rule) passes every other
   premise, fails [tok_ok], and the conclusion is false for it *)
Lemma tok_ok_needed :
  ws_ok wg2 = true /\ eoi_fresh 0 wg2 = true /\ callable 0 wg2 3 = true /\ tok_ok 0 wg2 = false /\
  tok_pair wg2 w_input2 3 30 = Some ([Tok 3 0 3 [Tok 1 1 2 []]], [Tok 3 0 3 [Tok 1 1 2 [Tok 2 1 2 []]]]) /\
  map (prune wg2) [Tok 3 0 3 [Tok 1 1 2 []]] <> [Tok 3 0 3 [Tok 1 1 2 [Tok 2 1 2 []]]].
Proof. vm_compute. repeat split. intros H. discriminate H. Qed.

(* the other exclusions of [quiet] are needed as well.
   An @ rule called from WHITESPACE: pest gives it no token there, the typed tree keeps one.
   WHITESPACE = { at }  at = @{ " " }  main = { "a" ~ "b" }  on "a b" *)
Definition wg_at : ogrammar :=
  mk_ogrammar
    [ mk_orule 1 KNormal (OIdent (IdRule 2));
      mk_orule 2 KAtomic (OStr [32%N]);
      mk_orule 3 KNormal (OSeq (OStr [97%N]) (OStr [98%N])) ]
    (Some 1%N) None.

Lemma quiet_atomic_needed :
  ws_ok wg_at = true /\ eoi_fresh 0 wg_at = true /\ callable 0 wg_at 3 = true /\ tok_ok 0 wg_at = false /\
  tok_pair wg_at w_input2 3 30 = Some ([Tok 3 0 3 [Tok 1 1 2 []]], [Tok 3 0 3 [Tok 1 1 2 [Tok 2 1 2 []]]]) /\
  map (prune wg_at) [Tok 3 0 3 [Tok 1 1 2 []]] <> [Tok 3 0 3 [Tok 1 1 2 [Tok 2 1 2 []]]].
Proof. vm_compute. repeat split. intros H. discriminate H. Qed.

(* EOI inside WHITESPACE: no token for pest (atomic), a token in the typed tree.
   WHITESPACE = { "#" ~ EOI }  main = { "a" ~ "b"? }  on "a#" *)
Definition wg_eoi : ogrammar :=
  mk_ogrammar
    [ mk_orule 1 KNormal (OSeq (OStr [35%N]) (OIdent (IdBuiltin BEoi)));
      mk_orule 3 KNormal (OSeq (OStr [97%N]) (OOpt (OStr [98%N]))) ]
    (Some 1%N) None.

Lemma quiet_eoi_needed :
  ws_ok wg_eoi = true /\ eoi_fresh 0 wg_eoi = true /\ callable 0 wg_eoi 3 = true /\ tok_ok 0 wg_eoi = false /\
  tok_pair wg_eoi [97; 35]%N 3 30 = Some ([Tok 3 0 2 [Tok 1 1 2 []]], [Tok 3 0 2 [Tok 1 1 2 [Tok 0 2 2 []]]]) /\
  map (prune wg_eoi) [Tok 3 0 2 [Tok 1 1 2 []]] <> [Tok 3 0 2 [Tok 1 1 2 [Tok 0 2 2 []]]].
Proof. vm_compute. repeat split. intros H. discriminate H. Qed.

(* a silent WHITESPACE is no better: WHITESPACE = _{ inner }  inner = { " " } *)
Definition wg_sil : ogrammar :=
  mk_ogrammar
    [ mk_orule 1 KSilent (OIdent (IdRule 2));
      mk_orule 2 KNormal (OStr [32%N]);
      mk_orule 3 KNormal (OSeq (OStr [97%N]) (OStr [98%N])) ]
    (Some 1%N) None.

Lemma quiet_silent_needed :
  ws_ok wg_sil = true /\ eoi_fresh 0 wg_sil = true /\ callable 0 wg_sil 3 = true /\ tok_ok 0 wg_sil = false /\
  tok_pair wg_sil w_input2 3 30 = Some ([Tok 3 0 3 []], [Tok 3 0 3 [Tok 2 1 2 []]]) /\
  map (prune wg_sil) [Tok 3 0 3 []] <> [Tok 3 0 3 [Tok 2 1 2 []]].
Proof. vm_compute. repeat split. intros H. discriminate H. Qed.

(* The same about the REAL parse path: RefinePanic.v (C05 without the reference-run premise, through
   PegMain2.entry_rel) says the real parse path returns the very tree of the reference interpreter. *)
From PT Require Import Proofs.Refine Proofs.BoundaryOps Proofs.PegMain2.

Theorem typed_pair_tree_is_pest g eoi I pred :
  ws_ok g = true -> eoi_fresh eoi g = true -> tok_ok eoi g = true -> good_inp I -> glits_ok g ->
  forall r, callable eoi g r = true -> forall n pos stk toks,
  peg_entry (penv_of eoi g I pred) n r = POk pos stk toks ->
  forall m pos' t st',
  try_parse_partial (env_of eoi g I pred) m r = Ok (pos', t) st' ->
  pos' = pos /\ cache (Sem.stk st') = stk /\ tokens (env_of eoi g I pred) t = map (prune g) toks.
Proof.
  intros Hws Heoi Htok HI Hg r Hc n pos stk toks Hp m pos' t st' Ht.
  pose proof (entry_rel g eoi I pred (env_of_ok eoi g I pred HI Hg) m r) as Hr. rewrite Ht in Hr.
  destruct (aparse (env_of eoi g I pred) m true (TRule r SkOn) (i_start I) []) as [[p2 t2] stk2| | |] eqn:Ha;
    cbn [rel] in Hr; try contradiction.
  destruct Hr as (-> & -> & Hst & _).
  destruct (typed_tokens_are_pest g eoi I pred Hws Heoi Htok r Hc n pos stk toks Hp m p2 t2 stk2 Ha) as (-> & -> & Hk).
  split; [reflexivity|]. split; [exact Hst|exact Hk].
Qed.
