(* C02: what the forward simulation (PegSimFwd.v) needs in order to compare trees -- the pruning of pest's tree
   below atomic / compound-atomic rules, the side condition on WHITESPACE / COMMENT, the relation between
   results that also carries a claim about the tree with its bind lemma, and the EOI leaf. *)
From Coq Require Import List ZArith Bool.
From PT Require Import Model.Base Model.Stack Model.Texpr Model.Sem Model.Aparse Model.Tok Model.Tokens.
From PT Require Import Model.Ast Model.Translate Model.PegSpec Model.GenEnv.
From PT Require Import Proofs.FuelFacts Proofs.PegSimBase.
Import ListNotations.

(* The documented difference between the two trees: the typed side shows no descendants below a token whose
   rule is declared @ or $. *)
Definition rule_atomic (g : ogrammar) (r : N) : bool :=
  match lookup_rule (g_rules g) r with
  | Some d => kind_atomic (o_kind d)
  | None => false
  end.

Fixpoint prune (g : ogrammar) (t : tok) : tok :=
  match t with
  | Tok r s e cs => Tok r s e (if rule_atomic g r then [] else map (prune g) cs)
  end.

(* The side condition on WHITESPACE / COMMENT.
   pest runs the body of WHITESPACE / COMMENT atomically: a normal or @ rule called from there gives no
   token (and EOI neither), whereas the typed tree keeps one for every non-silent rule.  [quiet] says that
   an expression, run in an atomic context whose tree the typed side keeps, only calls rules for which
   both sides agree: ! and $ rules (a token on both sides), undefined rules, and silent rules whose own
   body is quiet.  Predicates are unconstrained (no tokens on either side). *)
Section Quiet.
  Variable g : ogrammar.
  Variable QS : oexpr -> bool.            (* quietness of the bodies of silent rules, one level down *)

  Fixpoint quiet_step (e : oexpr) : bool :=
    match e with
    | OIdent (IdRule x) =>
        match lookup_rule (g_rules g) x with
        | None => true
        | Some d =>
            match o_kind d with
            | KNonAtomic | KCompound => true
            | KSilent => QS (o_expr d)
            | KNormal | KAtomic => false
            end
        end
    | OIdent (IdBuiltin BEoi) => false
    | OPosPred _ | ONegPred _ => true
    | OOpt e1 | ORep e1 | OPush e1 | ORestore e1 => quiet_step e1
    | OSeq a b | OChoice a b => quiet_step a && quiet_step b
    | _ => true
    end.
End Quiet.

Fixpoint quiet (g : ogrammar) (n : nat) (e : oexpr) : bool :=
  match n with
  | O => quiet_step g (fun _ => false) e
  | S n' => quiet_step g (quiet g n') e
  end.

(* Any depth is sound here (the proofs use some n with [quiet g n]); one level per silent rule entered, and a
   chain of silent rules longer than the rule list has come back to a rule, which is quiet at no depth. *)
Definition skip_tok_ok (g : ogrammar) (o : option N) : bool :=
  match o with
  | None => true
  | Some r =>
      match lookup_rule (g_rules g) r with
      | None => true
      | Some d => kind_atomic (o_kind d) || quiet g (length (g_rules g)) (o_expr d)
      end
  end.

(* WHITESPACE / COMMENT are declared @ / $ or have a quiet body.  (The EOI index plays no role: the
   condition speaks about the built-in EOI, not about its index.) *)
Definition tok_ok (eoi : N) (g : ogrammar) : bool :=
  skip_tok_ok g (g_ws g) && skip_tok_ok g (g_comment g).

(* e1 is an immediate sub-expression of e that is not under a predicate *)
Inductive subexp : oexpr -> oexpr -> Prop :=
| sub_opt e : subexp (OOpt e) e
| sub_rep e : subexp (ORep e) e
| sub_push e : subexp (OPush e) e
| sub_restore e : subexp (ORestore e) e
| sub_seq_l a b : subexp (OSeq a b) a
| sub_seq_r a b : subexp (OSeq a b) b
| sub_choice_l a b : subexp (OChoice a b) a
| sub_choice_r a b : subexp (OChoice a b) b.

Lemma quiet_step_sub g QS e e1 : subexp e e1 -> quiet_step g QS e = true -> quiet_step g QS e1 = true.
Proof. intros []; cbn [quiet_step]; intros H; try exact H; apply andb_true_iff in H; apply H. Qed.

Lemma quiet_eoi g n : quiet g n (OIdent (IdBuiltin BEoi)) = false.
Proof. destruct n; reflexivity. Qed.

Lemma quiet_rule g n x d :
  quiet g n (OIdent (IdRule x)) = true -> lookup_rule (g_rules g) x = Some d ->
  match o_kind d with
  | KNonAtomic | KCompound => True
  | KSilent => exists n', quiet g n' (o_expr d) = true
  | KNormal | KAtomic => False
  end.
Proof.
  intros Hq Hl. destruct n as [|n]; cbn [quiet quiet_step] in Hq; rewrite Hl in Hq;
    destruct (o_kind d); try discriminate Hq; try exact I. exists n. exact Hq.
Qed.

(* the invariant of the contexts in which the typed side keeps the tree: the spec is non-atomic, or it is
   atomic (inside WHITESPACE / COMMENT) and the expression is quiet *)
Definition tctx (g : ogrammar) (at_ : atomicity) (e : oexpr) : Prop :=
  at_ = ANon \/ (at_ = AAtomic /\ exists n, quiet g n e = true).

Lemma tctx_sub g at_ e e1 : subexp e e1 -> tctx g at_ e -> tctx g at_ e1.
Proof.
  intros Hs [Ha|[Ha [n Hn]]]; [left; exact Ha|right]. split; [exact Ha|]. exists n.
  destruct n; exact (quiet_step_sub g _ e e1 Hs Hn).
Qed.

Definition fsimP {T} (P : T -> list tok -> Prop) (p : pres) (a : ares (nat * T)) : Prop :=
  match p with
  | POk pos stk toks => a = APanic \/ exists t, a = AOk (pos, t) stk /\ P t toks
  | PFail => a = APanic \/ a = AFail
  | PPanic => a = APanic
  | PFuel => True
  end.

Lemma fsimP_panic {T} (P : T -> list tok -> Prop) p : fsimP P p APanic.
Proof. destruct p; cbn; auto. Qed.

Lemma fsimP_mono {T} (P Q : T -> list tok -> Prop) p (a : ares (nat * T)) :
  (forall t toks, P t toks -> Q t toks) -> fsimP P p a -> fsimP Q p a.
Proof.
  intros HPQ. destruct p as [pos stk toks| | |]; cbn [fsimP]; intros H; try exact H.
  destruct H as [H|[t [H Ht]]]; [left; exact H|right]. exists t. split; [exact H|exact (HPQ t toks Ht)].
Qed.

(* The one case analysis.  A spec step "match p with POk => K | PFail => KF | r => r" against a typed step of
   the same shape, x standing for the accumulators of the typed loop: the first run is simulated, and so
   is what follows it, in the two cases in which something follows. *)
Lemma fsimP_bind {X T U} (P : T -> list tok -> Prop) (Q : X -> U -> list tok -> Prop) (p : pres)
      (a : nat -> nat -> nat -> ares (nat * T))
      (K : nat -> list span -> list tok -> pres) (KF : pres)
      (KA : nat -> nat -> nat -> X -> nat * T -> list span -> ares (nat * U))
      (KAF : nat -> nat -> nat -> X -> ares (nat * U)) :
  eventually3 (fun m l n => fsimP P p (a m l n)) ->
  (forall pos stk toks, p = POk pos stk toks ->
     eventually3 (fun m l n => forall x t, P t toks -> fsimP (Q x) (K pos stk toks) (KA m l n x (pos, t) stk))) ->
  (p = PFail -> eventually3 (fun m l n => forall x, fsimP (Q x) KF (KAF m l n x))) ->
  eventually3 (fun m l n => forall x,
        fsimP (Q x) (match p with POk u v w => K u v w | PFail => KF | PPanic => PPanic | PFuel => PFuel end)
              (match a m l n with
               | AOk u s => KA m l n x u s | AFail => KAF m l n x | APanic => APanic | AFuel => AFuel
               end)).
Proof.
  intros H0 H1 H2. destruct p as [pos stk toks| | |].
  - refine (ev_imp _ _ (ev_and _ _ H0 (H1 pos stk toks eq_refl)) _). intros k [Ha Hk] m l n Hm Hl Hn x.
    destruct (Ha m l n Hm Hl Hn) as [->|[t [-> Ht]]]; [apply fsimP_panic|]. exact (Hk m l n Hm Hl Hn x t Ht).
  - refine (ev_imp _ _ (ev_and _ _ H0 (H2 eq_refl)) _). intros k [Ha Hk] m l n Hm Hl Hn x.
    destruct (Ha m l n Hm Hl Hn) as [->| ->]; [apply fsimP_panic|]. exact (Hk m l n Hm Hl Hn x).
  - refine (ev3_imp _ _ H0 _). intros m l n Ha x. cbn [fsimP]. rewrite Ha. reflexivity.
  - apply ev3_all. intros. exact I.
Qed.

(* the same without accumulators *)
Lemma fsimP_bind0 {T U} (P : T -> list tok -> Prop) (Q : U -> list tok -> Prop) (p : pres)
      (a : nat -> nat -> nat -> ares (nat * T))
      (K : nat -> list span -> list tok -> pres) (KF : pres)
      (KA : nat -> nat -> nat -> nat * T -> list span -> ares (nat * U)) (KAF : nat -> nat -> nat -> ares (nat * U)) :
  eventually3 (fun m l n => fsimP P p (a m l n)) ->
  (forall pos stk toks, p = POk pos stk toks ->
     eventually3 (fun m l n => forall t, P t toks -> fsimP Q (K pos stk toks) (KA m l n (pos, t) stk))) ->
  (p = PFail -> eventually3 (fun m l n => fsimP Q KF (KAF m l n))) ->
  eventually3 (fun m l n =>
        fsimP Q (match p with POk u v w => K u v w | PFail => KF | PPanic => PPanic | PFuel => PFuel end)
              (match a m l n with
               | AOk u s => KA m l n u s | AFail => KAF m l n | APanic => APanic | AFuel => AFuel
               end)).
Proof.
  intros H0 H1 H2.
  refine (ev3_imp _ _ (fsimP_bind (X := unit) P (fun _ => Q) p a K KF (fun m l n _ => KA m l n)
                                 (fun m l n _ => KAF m l n) H0 _ _) (fun m l n H => H tt)).
  - intros pos stk toks Hp. refine (ev3_imp _ _ (H1 pos stk toks Hp) _). intros m l n H _. exact H.
  - intros Hp. refine (ev3_imp _ _ (H2 Hp) _). intros m l n H _. exact H.
Qed.

(* the same with two accumulators *)
Lemma fsimP_bind2 {X Y T U} (P : T -> list tok -> Prop) (Q : X -> Y -> U -> list tok -> Prop) (p : pres)
      (a : nat -> nat -> nat -> ares (nat * T))
      (K : nat -> list span -> list tok -> pres) (KF : pres)
      (KA : nat -> nat -> nat -> X -> Y -> nat * T -> list span -> ares (nat * U))
      (KAF : nat -> nat -> nat -> X -> Y -> ares (nat * U)) :
  eventually3 (fun m l n => fsimP P p (a m l n)) ->
  (forall pos stk toks, p = POk pos stk toks ->
     eventually3 (fun m l n => forall x y t, P t toks -> fsimP (Q x y) (K pos stk toks) (KA m l n x y (pos, t) stk))) ->
  (p = PFail -> eventually3 (fun m l n => forall x y, fsimP (Q x y) KF (KAF m l n x y))) ->
  eventually3 (fun m l n => forall x y,
        fsimP (Q x y) (match p with POk u v w => K u v w | PFail => KF | PPanic => PPanic | PFuel => PFuel end)
              (match a m l n with
               | AOk u s => KA m l n x y u s | AFail => KAF m l n x y | APanic => APanic | AFuel => AFuel
               end)).
Proof.
  intros H0 H1 H2.
  refine (ev3_imp _ _ (fsimP_bind (X := X * Y) P (fun xy => Q (fst xy) (snd xy)) p a K KF
                         (fun m l n xy => KA m l n (fst xy) (snd xy)) (fun m l n xy => KAF m l n (fst xy) (snd xy))
                         H0 _ _) (fun m l n H x y => H (x, y))).
  - intros pos stk toks Hp. refine (ev3_imp _ _ (H1 pos stk toks Hp) _). intros m l n H [x y]. exact (H x y).
  - intros Hp. refine (ev3_imp _ _ (H2 Hp) _). intros m l n H [x y]. exact (H x y).
Qed.

Lemma fsimP_ok {T} (P : T -> list tok -> Prop) pos stk toks t : P t toks -> fsimP P (POk pos stk toks) (AOk (pos, t) stk).
Proof. intros H. right. exists t. split; [reflexivity|exact H]. Qed.

(* a step that only passes a result on: the spec with more tokens in front, the typed side with the tree wrapped *)
Definition tokmap (f : list tok -> list tok) (p : pres) : pres :=
  match p with POk pos stk toks => POk pos stk (f toks) | PFail => PFail | PPanic => PPanic | PFuel => PFuel end.

Lemma fsimP_map {T U} (P : T -> list tok -> Prop) (Q : U -> list tok -> Prop) f (h : T -> U) p a :
  fsimP P p a -> (forall t toks, P t toks -> Q (h t) (f toks)) ->
  fsimP Q (tokmap f p)
        (match a with AOk (pos, t) s => AOk (pos, h t) s | AFail => AFail | APanic => APanic | AFuel => AFuel end).
Proof.
  intros H HPQ. destruct p as [pos stk toks| | |]; cbn [fsimP tokmap] in H |- *.
  - destruct H as [->|[t [-> Ht]]]; [left; reflexivity|right]. exists (h t). split; [reflexivity|exact (HPQ t toks Ht)].
  - destruct H as [->| ->]; [left|right]; reflexivity.
  - rewrite H. reflexivity.
  - exact I.
Qed.

Lemma fsimP_toks {T} (P Q : T -> list tok -> Prop) f p a :
  fsimP P p a -> (forall t toks, P t toks -> Q t (f toks)) -> fsimP Q (tokmap f p) a.
Proof.
  intros H HPQ. destruct p as [pos stk toks| | |]; cbn [fsimP tokmap] in H |- *; try exact H.
  destruct H as [H|[t [H Ht]]]; [left; exact H|right]. exists t. split; [exact H|exact (HPQ t toks Ht)].
Qed.

Lemma fsimP_tree {T U} (P : T -> list tok -> Prop) (Q : U -> list tok -> Prop) (h : T -> U) p a :
  fsimP P p a -> (forall t toks, P t toks -> Q (h t) toks) ->
  fsimP Q p (match a with AOk (pos, t) s => AOk (pos, h t) s | AFail => AFail | APanic => APanic | AFuel => AFuel end).
Proof.
  intros H HPQ. destruct p as [pos stk toks| | |]; cbn [fsimP] in H |- *.
  - destruct H as [->|[t [-> Ht]]]; [left; reflexivity|right]. exists (h t). split; [reflexivity|exact (HPQ t toks Ht)].
  - destruct H as [->| ->]; [left|right]; reflexivity.
  - rewrite H. reflexivity.
  - exact I.
Qed.

Lemma fsimP_of_fsim {T} (P : T -> list tok -> Prop) p (a : ares (nat * T)) :
  fsim p a ->
  (forall pos stk toks t, p = POk pos stk toks -> a = AOk (pos, t) stk -> P t toks) ->
  fsimP P p a.
Proof.
  destruct p as [pos stk toks| | |]; cbn [fsim fsimP]; intros H HP; try exact H.
  destruct H as [H|[t H]]; [left; exact H|right]. exists t. split; [exact H|].
  apply (HP pos stk toks t eq_refl H).
Qed.

Lemma lagreeP_fsimP {T} (P : T -> list tok -> Prop) p (a : ares (nat * T)) : lagreeP P p a -> fsimP P p a.
Proof. destruct p; cbn [lagreeP fsimP]; intros H; [exact H..|destruct H]. Qed.

Lemma fsimP_fsim {T} (P : T -> list tok -> Prop) p (a : ares (nat * T)) : fsimP P p a -> fsim p a.
Proof.
  destruct p as [pos stk toks| | |]; cbn [fsim fsimP]; intros H; try exact H.
  destruct H as [H|[t [H _]]]; [left; exact H|right; exists t; exact H].
Qed.

Lemma tokens_seq E items :
  tokens E (NSeq items) = flat_map (fun it => flat_map (tokens E) (fst it) ++ tokens E (snd it)) items.
Proof. reflexivity. Qed.

Section TokBase.
  Variables (g : ogrammar) (eoi : N) (I : inp) (pred : N -> char -> bool).
  Local Notation E := (env_of eoi g I pred).
  Local Notation G := (penv_of eoi g I pred).

  Hypothesis Hws : ws_ok g = true.
  Hypothesis Heoi : eoi_fresh eoi g = true.
  Hypothesis Htok : tok_ok eoi g = true.

  (* the claim about trees: what the Pair API shows is pest's list, pruned *)
  Definition TK (t : tnode) (toks : list tok) : Prop := tokens E t = map (prune g) toks.

  (* the tokens of the items a sequence / repetition has accumulated (most recent first) *)
  Definition acc_toks (acc : list (list tnode * tnode)) : list tok :=
    flat_map (fun it => flat_map (tokens E) (fst it) ++ tokens E (snd it)) (rev acc).

  Lemma acc_toks_cons sk t acc :
    acc_toks ((sk, t) :: acc) = acc_toks acc ++ flat_map (tokens E) sk ++ tokens E t.
  Proof.
    unfold acc_toks. cbn [rev]. rewrite flat_map_app. cbn [flat_map fst snd]. rewrite app_nil_r. reflexivity.
  Qed.

  Lemma arep_toks_cons t tacc acc toks :
    flat_map (tokens E) (rev tacc) = map (prune g) acc -> tokens E t = map (prune g) toks ->
    flat_map (tokens E) (rev (t :: tacc)) = map (prune g) (acc ++ toks).
  Proof.
    intros H1 H2. cbn [rev]. rewrite flat_map_app, map_app, H1. cbn [flat_map]. rewrite app_nil_r, H2.
    reflexivity.
  Qed.

  Lemma skip_body_quiet r d : is_skip_name g r = true -> lookup_rule (g_rules g) r = Some d ->
    kind_atomic (o_kind d) = false -> exists n, quiet g n (o_expr d) = true.
  Proof.
    intros Hs Hl Hk. unfold tok_ok in Htok. apply andb_true_iff in Htok. destruct Htok as [H1 H2].
    unfold is_skip_name in Hs. apply orb_true_iff in Hs.
    assert (Hx : skip_tok_ok g (Some r) = true).
    { destruct Hs as [Hs|Hs].
      - destruct (g_ws g) as [w|]; [|discriminate]. apply N.eqb_eq in Hs. subst w. exact H1.
      - destruct (g_comment g) as [c|]; [|discriminate]. apply N.eqb_eq in Hs. subst c. exact H2. }
    unfold skip_tok_ok in Hx. rewrite Hl, Hk in Hx. cbn [orb] in Hx. eexists. exact Hx.
  Qed.

  Lemma inner_tctx at_ r d :
    tctx g at_ (OIdent (IdRule r)) -> lookup_rule (g_rules g) r = Some d ->
    kind_atomic (o_kind d) = false ->
    tctx g (inner_at g at_ r (o_kind d)) (o_expr d).
  Proof.
    intros Ht Hl Hk. unfold inner_at.
    destruct (is_skip_name g r) eqn:Hs.
    - pose proof (skip_body_quiet r d Hs Hl Hk) as Hq.
      destruct (o_kind d); try discriminate Hk; right; (split; [reflexivity|exact Hq]).
    - destruct Ht as [Ha|[Ha [n Hn]]].
      + subst at_. destruct (o_kind d); try discriminate Hk; left; reflexivity.
      + subst at_. pose proof (quiet_rule g n r d Hn Hl) as Hq.
        destruct (o_kind d); try discriminate Hk; try (destruct Hq; fail).
        * right. split; [reflexivity|exact Hq].
        * left. reflexivity.
  Qed.

  Definition call_tokens (r : N) (k : rkind) (pos pos' : nat) (inner : list tok) : list tok :=
    match k with
    | KSilent => inner
    | KAtomic | KCompound => [Tok r pos pos' []]
    | KNormal | KNonAtomic => [Tok r pos pos' inner]
    end.

  (* the node the typed side makes of the body's tree t (unless the span cannot be taken), and its tokens *)
  Lemma call_node r d pos pos' t stk' : r <> eoi -> lookup_rule (g_rules g) r = Some d ->
    fsimP (fun t' toks => tokens E t' = toks) (POk pos' stk' (call_tokens r (o_kind d) pos pos' (tokens E t)))
          (match emis_of_kind (o_kind d) with
           | EmExpr => AOk (pos', NRule r (Some t) None) stk'
           | EmSpan => alift (i_span I pos pos') (fun sp => AOk (pos', NRule r None (Some sp)) stk')
           | EmBoth => alift (i_span I pos pos') (fun sp => AOk (pos', NRule r (Some t) (Some sp)) stk')
           end).
  Proof.
    intros Hne Hl. apply N.eqb_neq in Hne. cbn [fsimP]. unfold i_span.
    destruct (slice_opt (parent I) pos pos') as [x|].
    - right. destruct (o_kind d) eqn:Hk; cbn [emis_of_kind alift]; eexists; (split; [reflexivity|]);
        cbn [tokens e_rules env_of]; unfold has_children; cbn [e_rules env_of]; rewrite Hne, Hl;
        cbn [rdef_of_orule r_emis r_atom]; rewrite Hk; reflexivity.
    - destruct (o_kind d) eqn:Hk; cbn [emis_of_kind alift]; try (left; reflexivity).
      right. eexists. split; [reflexivity|].
      cbn [tokens e_rules env_of]. rewrite Hne, Hl. cbn [rdef_of_orule r_emis]. rewrite Hk. reflexivity.
  Qed.

  Lemma call_tokens_match at_ r d pos pos' ttoks toks :
    tctx g at_ (OIdent (IdRule r)) -> lookup_rule (g_rules g) r = Some d ->
    (kind_atomic (o_kind d) = false -> ttoks = map (prune g) toks) ->
    call_tokens r (o_kind d) pos pos' ttoks =
    map (prune g) (if tok_seen at_ (o_kind d) then [Tok r pos pos' toks] else toks).
  Proof.
    intros Ht Hl Hin.
    assert (Hra : rule_atomic g r = kind_atomic (o_kind d)) by (unfold rule_atomic; rewrite Hl; reflexivity).
    destruct Ht as [Ha|[Ha [n Hn]]]; subst at_.
    - destruct (o_kind d) eqn:Hk; cbn [call_tokens tok_seen map prune kind_atomic] in *;
        rewrite ?Hra; try rewrite (Hin eq_refl); reflexivity.
    - pose proof (quiet_rule g n r d Hn Hl) as Hq.
      destruct (o_kind d) eqn:Hk; try (destruct Hq; fail);
        cbn [call_tokens tok_seen map prune kind_atomic] in *;
        rewrite ?Hra; try rewrite (Hin eq_refl); reflexivity.
  Qed.

  (* the tree is compared where C holds: that is outside lookahead and in a context [tctx] *)
  Lemma eoi_sim at_ la pos stk inh m (C : Prop) :
    (C -> la = false /\ tctx g at_ (OIdent (IdBuiltin BEoi))) ->
    fsimP (fun t toks => C -> TK t toks) (p_builtin G at_ la BEoi pos stk)
          (aparse E (3 + m) inh (builtin_texpr eoi BEoi) pos stk).
  Proof.
    intros HC. change (3 + m) with (S (S (S m))). cbn [builtin_texpr p_builtin p_inp penv_of].
    rewrite aparse_S. cbn [a_step e_inp env_of e_rules]. rewrite N.eqb_refl. cbn [r_body r_emis resolve].
    rewrite aparse_S. cbn [a_step e_inp env_of].
    destruct (i_at_end I pos); [|right; reflexivity].
    unfold i_span. destruct (slice_opt (parent I) pos pos); cbn [alift fsimP]; [|left; reflexivity].
    right. eexists. split; [reflexivity|]. intros H. destruct (HC H) as [-> Ht].
    assert (Ha : at_ = ANon).
    { destruct Ht as [Ha|[_ [n Hn]]]; [exact Ha|]. rewrite quiet_eoi in Hn. discriminate Hn. }
    subst at_. unfold TK. cbn [tokens e_rules env_of negb andb]. unfold has_children.
    cbn [e_rules env_of]. rewrite N.eqb_refl. cbn [r_emis r_atom map prune].
    cbn [p_eoi penv_of]. destruct (rule_atomic g eoi); reflexivity.
  Qed.

  Lemma leaf_sim R CALL lf at_ la e pos stk k inh m (C : Prop) :
    leaf e = true -> (C -> la = false /\ tctx g at_ e) ->
    fsimP (fun t toks => C -> TK t toks) (p_step G R CALL lf at_ la e pos stk)
          (aparse E (3 + m) inh (tr eoi k e) pos stk).
  Proof.
    intros Hl HC. destruct (not_eoi e) eqn:Hn.
    - eapply fsimP_mono; [|apply lagreeP_fsimP, leaf_agree, Hl]. intros t toks H _.
      rewrite Hn in H. destruct (H eq_refl) as [Ht ->]. unfold TK. rewrite Ht. reflexivity.
    - destruct e; try discriminate Hn. destruct i; try discriminate Hn. destruct b; try discriminate Hn.
      cbn [p_step tr tr_ident]. apply eoi_sim. exact HC.
  Qed.
End TokBase.
