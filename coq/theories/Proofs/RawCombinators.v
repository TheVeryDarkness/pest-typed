(* C19: the remaining raw combinators -- pairs, optionals, skip-n-chars, the skip repetition (AtomicRepeat)
   and fixed arrays -- match exactly the concatenation they denote.

   Every characterisation is stated on the reference interpreter [aparse] (Model/Aparse.v) as a [match] on the
   result that constrains ALL four outcomes, plus the converse direction (so the characterisations are
   equivalences; for the leaf [TSkipChars] it is an equation), and is then transferred to the real parse path
   [tparse] through the refinement theorems of Proofs/Refine.v (no-panic premise) and Proofs/RefinePanic.v
   ([env_ok] premises).  For [TSkipChars] (a leaf) and for the tracker trace of [TAtomicRep] the real path is
   characterised directly, with no premise at all. *)
From Coq Require Import List NArith Arith Lia.
From PT Require Import Model.Base Model.Stack Model.Texpr Model.Sem Model.Aparse Model.LinesSpec.
From PT Require Import Proofs.StackInv Proofs.Refine Proofs.RefinePanic Proofs.RepSpec.
From PT Require Import Proofs.ListFacts Proofs.BaseFacts Proofs.LinesUtf8 Proofs.BoundaryOps Proofs.Boundary.
Import ListNotations.

(* `chars()` taken n times: the characters with the number of bytes each one occupies; None = fewer than n
   characters can be decoded *)
Fixpoint dec_n (rest : list byte) (n : nat) : option (list (char * nat)) :=
  match n with
  | O => Some []
  | S n' =>
      match dec1 rest with
      | Some (c, l) =>
          match dec_n (skipn l rest) n' with
          | Some cls => Some ((c, l) :: cls)
          | None => None
          end
      | None => None
      end
  end.

Definition total (cls : list (char * nat)) : nat := list_sum (map snd cls).

Lemma total_nil : total [] = 0.
Proof. reflexivity. Qed.

Lemma total_cons c l cls : total ((c, l) :: cls) = l + total cls.
Proof. reflexivity. Qed.

Lemma total_app a b : total (a ++ b) = total a + total b.
Proof. unfold total. rewrite map_app, list_sum_app. reflexivity. Qed.

(* `skip(n)` of the input cursors is exactly this decoding *)
Lemma skip_chars_len_dec_n n : forall rest acc,
  skip_chars_len rest n acc =
  match dec_n rest n with Some cls => Some (acc + total cls) | None => None end.
Proof.
  induction n as [|n IH]; intros rest acc; cbn [skip_chars_len dec_n].
  - rewrite total_nil, Nat.add_0_r. reflexivity.
  - destruct (dec1 rest) as [[c l]|]; [|reflexivity].
    rewrite IH. destruct (dec_n (skipn l rest) n) as [cls|]; [|reflexivity].
    rewrite total_cons, Nat.add_assoc. reflexivity.
Qed.

Lemma i_skip_dec_n I n pos :
  i_skip I n pos =
  mbind (i_get I pos) (fun rest =>
    MOk (match dec_n rest n with Some cls => Some (pos + total cls) | None => None end)).
Proof.
  unfold i_skip. destruct (i_get I pos) as [rest|]; [|reflexivity]. cbn [mbind].
  rewrite skip_chars_len_dec_n. destruct (dec_n rest n); reflexivity.
Qed.

Lemma dec_n_S rest n cls : dec_n rest (S n) = Some cls ->
  exists c l cls', dec1 rest = Some (c, l) /\ dec_n (skipn l rest) n = Some cls' /\ cls = (c, l) :: cls'.
Proof.
  cbn [dec_n]. destruct (dec1 rest) as [[c l]|]; [|discriminate].
  destruct (dec_n (skipn l rest) n) as [cls'|] eqn:Hd; [|discriminate].
  intros [= <-]. exists c, l, cls'. repeat split. exact Hd.
Qed.

(* n characters, each of at least one byte, all inside the text *)
Lemma dec_n_some n : forall rest cls, dec_n rest n = Some cls ->
  length cls = n /\ n <= total cls <= length rest.
Proof.
  induction n as [|n IH]; intros rest cls H.
  - injection H as <-. cbn [length]. rewrite total_nil. lia.
  - apply dec_n_S in H as (c & l & cls' & H1 & Hd & ->).
    apply IH in Hd as (Hl & Hge & Hle). rewrite skipn_length in Hle.
    pose proof (dec1_pos _ _ _ H1). pose proof (proj1 (dec1_firstn _ _ _ H1)).
    rewrite total_cons. cbn [length]. lia.
Qed.

Lemma dec_n_length n : forall rest cls, dec_n rest n = Some cls -> length cls = n.
Proof. intros rest cls H. apply (dec_n_some n rest cls H). Qed.

Lemma dec_n_total_ge n : forall rest cls, dec_n rest n = Some cls -> n <= total cls.
Proof. intros rest cls H. apply (dec_n_some n rest cls H). Qed.

Lemma dec_n_add j : forall rest k,
  dec_n rest (j + k) =
  match dec_n rest j with
  | Some c1 => match dec_n (skipn (total c1) rest) k with Some c2 => Some (c1 ++ c2) | None => None end
  | None => None
  end.
Proof.
  induction j as [|j IH]; intros rest k; cbn [Nat.add dec_n].
  - rewrite total_nil. cbn [skipn app]. destruct (dec_n rest k); reflexivity.
  - destruct (dec1 rest) as [[c l]|]; [|reflexivity].
    rewrite IH. destruct (dec_n (skipn l rest) j) as [c1|]; [|reflexivity].
    rewrite total_cons, skipn_skipn, (Nat.add_comm (total c1)).
    destruct (dec_n (skipn (l + total c1) rest) k); reflexivity.
Qed.

Lemma dec_n_snoc rest n :
  dec_n rest (S n) =
  match dec_n rest n with
  | Some cls => match dec1 (skipn (total cls) rest) with Some cl => Some (cls ++ [cl]) | None => None end
  | None => None
  end.
Proof.
  rewrite <- (Nat.add_1_r n), dec_n_add. destruct (dec_n rest n) as [cls|]; [|reflexivity].
  cbn [dec_n]. destruct (dec1 (skipn (total cls) rest)) as [[c l]|]; reflexivity.
Qed.

(* failure = fewer than n characters: after some k < n decoded characters no further one can be decoded *)
Lemma dec_n_none_iff n : forall rest,
  dec_n rest n = None <->
  exists k cls, k < n /\ dec_n rest k = Some cls /\ dec1 (skipn (total cls) rest) = None.
Proof.
  intros rest. induction n as [|n IH].
  - split; [discriminate|]. intros (k & _ & Hk & _). lia.
  - rewrite dec_n_snoc. destruct (dec_n rest n) as [cls|] eqn:Hd.
    + destruct (dec1 (skipn (total cls) rest)) as [cl|] eqn:H1.
      * split; [discriminate|]. intros (k & cls' & Hk & Hdk & Hn). exfalso.
        destruct (Nat.eq_dec k n) as [->|Hne]; [congruence|].
        assert (Hx : Some cls = None) by (apply IH; exists k, cls'; split; [lia|split; assumption]).
        discriminate.
      * split; [|reflexivity]. intros _. exists n, cls. split; [lia|split; assumption].
    + split; [|reflexivity]. intros _. destruct (proj1 IH eq_refl) as (k & cls & Hk & H).
      exists k, cls. split; [lia|exact H].
Qed.

(* the consumed text -- the first [total cls] bytes -- decodes to exactly the same n characters: nothing
   behind it was looked at *)
Lemma dec_n_firstn n : forall rest cls k,
  dec_n rest n = Some cls -> total cls <= k -> dec_n (firstn k rest) n = Some cls.
Proof.
  induction n as [|n IH]; intros rest cls k H Hk; [exact H|].
  apply dec_n_S in H as (c & l & cls' & H1 & Hd & ->). rewrite total_cons in Hk.
  replace k with (l + (k - l)) by lia.
  cbn [dec_n]. rewrite (proj2 (dec1_firstn rest c l H1)), skipn_firstn_comm, (IH _ _ _ Hd) by lia. reflexivity.
Qed.

Definition with_len (cs : list char) : list (char * nat) := map (fun c => (c, len_utf8 c)) cs.

Lemma total_with_len cs : total (with_len cs) = length (encode cs).
Proof.
  induction cs as [|c cs IH]; [reflexivity|].
  unfold with_len. cbn [map]. rewrite total_cons. fold (with_len cs). rewrite IH, encode_length_cons. reflexivity.
Qed.

Lemma dec_n_encode m : valid_str m -> forall n,
  dec_n (encode m) n = if n <=? length m then Some (with_len (firstn n m)) else None.
Proof.
  intros Hm. induction Hm as [|x m Hx Hm IH]; intros [|n]; try reflexivity.
  cbn [dec_n length Nat.leb firstn]. rewrite encode_cons, (dec1_enc x _ Hx), skipn_enc, IH.
  destruct (n <=? length m); reflexivity.
Qed.

Lemma i_skip_utf8 I n pos : good_inp I -> good_cur I pos ->
  exists m, valid_str m /\ i_get I pos = MOk (encode m) /\
    i_skip I n pos = MOk (if n <=? length m then Some (pos + length (encode (firstn n m))) else None) /\
    i_span I pos (pos + length (encode (firstn n m))) = MOk (pos, pos + length (encode (firstn n m))).
Proof.
  intros HI Hc. destruct (good_cur_view _ _ HI Hc) as (a & m & b & Hv).
  destruct (view_valid _ _ _ _ _ Hv) as (_ & Hm & _).
  exists m. split; [exact Hm|]. split; [exact (view_get _ _ _ _ _ Hv)|]. split.
  - rewrite i_skip_dec_n, (view_get _ _ _ _ _ Hv). cbn [mbind]. rewrite (dec_n_encode m Hm).
    destruct (n <=? length m); [rewrite total_with_len|]; reflexivity.
  - apply (i_span_good _ _ _ HI Hc); [|lia].
    apply (view_advance I pos a (firstn n m) (skipn n m) b); [apply Hc|]. rewrite firstn_skipn. exact Hv.
Qed.

(* success = the first component, then -- with nothing skipped in between -- the second one from where the
   first stopped; failure = the first fails, or the first succeeds and the second fails.  All four outcomes
   are constrained, so the conditions are exact. *)
Theorem aparse_pair_spec E fuel inh a b pos stk :
  match aparse E (S fuel) inh (TPair a b) pos stk with
  | AOk (pos', t) stk' =>
      exists p1 ta s1 tb, t = NPair ta tb /\
        aparse E fuel inh a pos stk = AOk (p1, ta) s1 /\
        aparse E fuel inh b p1 s1 = AOk (pos', tb) stk'
  | AFail =>
      aparse E fuel inh a pos stk = AFail \/
      exists p1 ta s1, aparse E fuel inh a pos stk = AOk (p1, ta) s1 /\ aparse E fuel inh b p1 s1 = AFail
  | APanic =>
      aparse E fuel inh a pos stk = APanic \/
      exists p1 ta s1, aparse E fuel inh a pos stk = AOk (p1, ta) s1 /\ aparse E fuel inh b p1 s1 = APanic
  | AFuel =>
      aparse E fuel inh a pos stk = AFuel \/
      exists p1 ta s1, aparse E fuel inh a pos stk = AOk (p1, ta) s1 /\ aparse E fuel inh b p1 s1 = AFuel
  end.
Proof.
  rewrite aparse_pair.
  destruct (aparse E fuel inh a pos stk) as [[p1 ta] s1| | |] eqn:Ha; try (left; reflexivity).
  destruct (aparse E fuel inh b p1 s1) as [[p2 tb] s2| | |] eqn:Hb;
    [exists p1, ta, s1, tb; repeat split; assumption|right; exists p1, ta, s1; split; [reflexivity|assumption]..].
Qed.

Theorem aparse_pair_ok_iff E fuel inh a b pos stk pos' t stk' :
  aparse E (S fuel) inh (TPair a b) pos stk = AOk (pos', t) stk' <->
  exists p1 ta s1 tb, t = NPair ta tb /\
    aparse E fuel inh a pos stk = AOk (p1, ta) s1 /\
    aparse E fuel inh b p1 s1 = AOk (pos', tb) stk'.
Proof.
  split.
  - intros H. pose proof (aparse_pair_spec E fuel inh a b pos stk) as Hs. rewrite H in Hs. exact Hs.
  - intros (p1 & ta & s1 & tb & -> & Ha & Hb). rewrite aparse_pair, Ha, Hb. reflexivity.
Qed.

Theorem aparse_pair_fail_iff E fuel inh a b pos stk :
  aparse E (S fuel) inh (TPair a b) pos stk = AFail <->
  aparse E fuel inh a pos stk = AFail \/
  exists p1 ta s1, aparse E fuel inh a pos stk = AOk (p1, ta) s1 /\ aparse E fuel inh b p1 s1 = AFail.
Proof.
  split.
  - intros H. pose proof (aparse_pair_spec E fuel inh a b pos stk) as Hs. rewrite H in Hs. exact Hs.
  - intros [Ha|(p1 & ta & s1 & Ha & Hb)]; rewrite aparse_pair, Ha; [reflexivity|]. rewrite Hb. reflexivity.
Qed.

(* never fails; Some = the operand matched (its end position, its stack); None = the operand failed, and then
   position and stack are exactly those before the attempt *)
Theorem aparse_opt_spec E fuel inh e pos stk :
  match aparse E (S fuel) inh (TOpt e) pos stk with
  | AOk (pos', t) stk' =>
      (exists t1, t = NOpt (Some t1) /\ aparse E fuel inh e pos stk = AOk (pos', t1) stk') \/
      (t = NOpt None /\ pos' = pos /\ stk' = stk /\ aparse E fuel inh e pos stk = AFail)
  | AFail => False
  | APanic => aparse E fuel inh e pos stk = APanic
  | AFuel => aparse E fuel inh e pos stk = AFuel
  end.
Proof.
  rewrite aparse_opt.
  destruct (aparse E fuel inh e pos stk) as [[p1 t1] s1| | |] eqn:Ha; try reflexivity.
  - left. exists t1. split; reflexivity.
  - right. repeat split; reflexivity.
Qed.

Theorem aparse_opt_never_fails E fuel inh e pos stk : aparse E fuel inh (TOpt e) pos stk <> AFail.
Proof.
  destruct fuel as [|fuel]; [discriminate|]. intros H.
  pose proof (aparse_opt_spec E fuel inh e pos stk) as Hs. rewrite H in Hs. exact Hs.
Qed.

Theorem aparse_opt_some_iff E fuel inh e pos stk pos' t1 stk' :
  aparse E (S fuel) inh (TOpt e) pos stk = AOk (pos', NOpt (Some t1)) stk' <->
  aparse E fuel inh e pos stk = AOk (pos', t1) stk'.
Proof.
  rewrite aparse_opt. split.
  - destruct (aparse E fuel inh e pos stk) as [[p1 t1'] s1| | |]; try discriminate. intros H. inversion H. reflexivity.
  - intros ->. reflexivity.
Qed.

Theorem aparse_opt_none_iff E fuel inh e pos stk pos' stk' :
  aparse E (S fuel) inh (TOpt e) pos stk = AOk (pos', NOpt None) stk' <->
  aparse E fuel inh e pos stk = AFail /\ pos' = pos /\ stk' = stk.
Proof.
  rewrite aparse_opt. split.
  - destruct (aparse E fuel inh e pos stk) as [[p1 t1'] s1| | |]; try discriminate.
    intros H. inversion H. repeat split; reflexivity.
  - intros (-> & -> & ->). reflexivity.
Qed.

(* SkipChar<n> in closed form.  [rest] = the unconsumed text (cursor .. end()).  Success iff n characters can
   be decoded from it one after the other ([dec_n rest n = Some cls]); the cursor advances by the sum of their
   encoded lengths (and stays inside the input: [dec_n_some], [i_get_ok]), the node is the span cursor ..
   new cursor with the SkipChar tag, the stack is untouched.  Failure iff fewer than n characters remain
   (see [dec_n_none_iff]); nothing is consumed.  A panic is a cursor or span that is not a character boundary
   (impossible on valid UTF-8, [aparse_skip_chars_utf8]). *)
Theorem aparse_skip_chars_eq E fuel inh n pos stk :
  aparse E (S fuel) inh (TSkipChars n) pos stk =
  match i_get (e_inp E) pos with
  | MOk rest =>
      match dec_n rest n with
      | Some cls =>
          match i_span (e_inp E) pos (pos + total cls) with
          | MOk _ => AOk (pos + total cls, NSpanned KSkipChar pos (pos + total cls)) stk
          | MPanic => APanic
          end
      | None => AFail
      end
  | MPanic => APanic
  end.
Proof.
  cbn [aparse a_step]. rewrite i_skip_dec_n.
  destruct (i_get (e_inp E) pos) as [rest|]; [|reflexivity]. cbn [mbind aleaf alift].
  destruct (dec_n rest n); reflexivity.
Qed.

(* on a valid UTF-8 input at a good cursor: the unconsumed text is the encoding of a character list [m];
   SkipChar<n> succeeds iff n <= |m| and then consumes exactly the encoding of the first n characters of m *)
Theorem aparse_skip_chars_utf8 E fuel inh n pos stk :
  good_inp (e_inp E) -> good_cur (e_inp E) pos ->
  exists m, valid_str m /\ i_get (e_inp E) pos = MOk (encode m) /\
    aparse E (S fuel) inh (TSkipChars n) pos stk =
    if n <=? length m
    then let pos' := pos + length (encode (firstn n m)) in AOk (pos', NSpanned KSkipChar pos pos') stk
    else AFail.
Proof.
  intros HI Hc. destruct (i_skip_utf8 _ n pos HI Hc) as (m & Hm & Hg & Hs & Hsp).
  exists m. split; [exact Hm|]. split; [exact Hg|].
  cbn [aparse a_step]. rewrite Hs. destruct (n <=? length m); [|reflexivity].
  cbn [aleaf alift]. rewrite Hsp. reflexivity.
Qed.

Section Loops.
  Variable A : bool -> texpr -> nat -> list span -> ares (nat * tnode).
  Variables (inh : bool) (e : texpr).

  Lemma chain_length k pos stk ts pos' stk' : chain A inh e k pos stk ts pos' stk' -> length ts = k.
  Proof. intros H. induction H; cbn [length]; congruence. Qed.

  Lemma chain_det k pos stk ts1 p1 s1 : chain A inh e k pos stk ts1 p1 s1 ->
    forall ts2 p2 s2, chain A inh e k pos stk ts2 p2 s2 -> ts1 = ts2 /\ p1 = p2 /\ s1 = s2.
  Proof.
    intros H. induction H as [pos stk|k pos stk t pa sa ts pb sb Ha Hc IH]; intros ts2 p2 s2 H2.
    - inversion H2; subst. repeat split; reflexivity.
    - inversion H2 as [|? ? ? t' pa' sa' ts' pb' sb' Ha' Hc']; subst.
      rewrite Ha in Ha'. inversion Ha'; subst.
      destruct (IH _ _ _ Hc') as (-> & -> & ->). repeat split; reflexivity.
  Qed.

  Lemma a_arep_spec : forall n pos stk acc,
    match a_arep A n inh e pos stk acc with
    | AOk (pos', t) stk' =>
        exists ts, t = NAtomicRep (rev acc ++ ts) /\ length ts < n /\
          chain A inh e (length ts) pos stk ts pos' stk' /\ A inh e pos' stk' = AFail
    | AFail => False
    | APanic =>
        exists ts p s, length ts < n /\ chain A inh e (length ts) pos stk ts p s /\ A inh e p s = APanic
    | AFuel =>
        exists ts p s, chain A inh e (length ts) pos stk ts p s /\
          (length ts = n \/ (length ts < n /\ A inh e p s = AFuel))
    end.
  Proof.
    induction n as [|n IH]; intros pos stk acc; cbn [a_arep].
    - exists [], pos, stk. split; [constructor|left; reflexivity].
    - destruct (A inh e pos stk) as [[p1 t1] s1| | |] eqn:Ha.
      + specialize (IH p1 s1 (t1 :: acc)).
        destruct (a_arep A n inh e p1 s1 (t1 :: acc)) as [[p' t'] s'| | |].
        * destruct IH as (ts & -> & Hl & Hc & Hf). exists (t1 :: ts).
          cbn [rev length]. rewrite <- app_assoc. cbn [app].
          repeat split; [lia| |assumption]. econstructor; eassumption.
        * exact IH.
        * destruct IH as (ts & p & s & Hl & Hc & Hp). exists (t1 :: ts), p, s. cbn [length].
          repeat split; [lia| |assumption]. econstructor; eassumption.
        * destruct IH as (ts & p & s & Hc & Hl). exists (t1 :: ts), p, s. cbn [length].
          split; [econstructor; eassumption|]. destruct Hl as [Hl|[Hl Hf]]; [left; lia|right; split; [lia|assumption]].
      + exists []. rewrite app_nil_r. cbn [length]. repeat split; [lia|constructor|assumption].
      + exists [], pos, stk. cbn [length]. repeat split; [lia|constructor|assumption].
      + exists [], pos, stk. cbn [length]. split; [constructor|]. right. split; [lia|assumption].
  Qed.

  Lemma a_arep_complete k pos stk ts pos' stk' :
    chain A inh e k pos stk ts pos' stk' -> A inh e pos' stk' = AFail ->
    forall n acc, k < n -> a_arep A n inh e pos stk acc = AOk (pos', NAtomicRep (rev acc ++ ts)) stk'.
  Proof.
    intros H. induction H as [pos stk|k pos stk t pa sa ts pb sb Ha Hc IH]; intros Hf n acc Hk.
    - destruct n as [|n]; [lia|]. cbn [a_arep]. rewrite Hf, app_nil_r. reflexivity.
    - destruct n as [|n]; [lia|]. cbn [a_arep]. rewrite Ha. rewrite (IH Hf n (t :: acc)) by lia.
      cbn [rev]. rewrite <- app_assoc. reflexivity.
  Qed.

  Lemma a_arr_complete n pos stk ts pos' stk' :
    chain A inh e n pos stk ts pos' stk' ->
    forall acc, a_arr A n inh e pos stk acc = AOk (pos', NArr (rev acc ++ ts)) stk'.
  Proof.
    intros H. induction H as [pos stk|k pos stk t pa sa ts pb sb Ha Hc IH]; intros acc; cbn [a_arr].
    - rewrite app_nil_r. reflexivity.
    - rewrite Ha, IH. cbn [rev]. rewrite <- app_assoc. reflexivity.
  Qed.

  Lemma a_arr_fail_complete k pos stk ts pos' stk' :
    chain A inh e k pos stk ts pos' stk' -> A inh e pos' stk' = AFail ->
    forall n acc, k < n -> a_arr A n inh e pos stk acc = AFail.
  Proof.
    intros H. induction H as [pos stk|k pos stk t pa sa ts pb sb Ha Hc IH]; intros Hf n acc Hk.
    - destruct n as [|n]; [lia|]. cbn [a_arr]. rewrite Hf. reflexivity.
    - destruct n as [|n]; [lia|]. cbn [a_arr]. rewrite Ha. apply IH; [assumption|lia].
  Qed.
End Loops.

(* AtomicRepeat never fails.  Success returns the greedy run: [ts] are consecutive successes of the element
   (each starting at the position and stack where the previous one stopped, nothing skipped in between), the
   run stopped because the next attempt FAILS, and the cursor and stack returned are those after the last
   success.  (The loop fuel is the interpreter fuel; the other two outcomes say where a panic / the lack of
   fuel arose.) *)
Theorem aparse_atomic_rep_spec E fuel inh e pos stk :
  match aparse E (S fuel) inh (TAtomicRep e) pos stk with
  | AOk (pos', t) stk' =>
      exists ts, t = NAtomicRep ts /\ length ts < fuel /\
        chain (aparse E fuel) inh e (length ts) pos stk ts pos' stk' /\
        aparse E fuel inh e pos' stk' = AFail
  | AFail => False
  | APanic =>
      exists ts p s, length ts < fuel /\ chain (aparse E fuel) inh e (length ts) pos stk ts p s /\
        aparse E fuel inh e p s = APanic
  | AFuel =>
      exists ts p s, chain (aparse E fuel) inh e (length ts) pos stk ts p s /\
        (length ts = fuel \/ (length ts < fuel /\ aparse E fuel inh e p s = AFuel))
  end.
Proof.
  cbn [aparse a_step]. exact (a_arep_spec (aparse E fuel) inh e fuel pos stk []).
Qed.

Theorem aparse_atomic_rep_never_fails E fuel inh e pos stk : aparse E fuel inh (TAtomicRep e) pos stk <> AFail.
Proof.
  destruct fuel as [|fuel]; [discriminate|]. intros H.
  pose proof (aparse_atomic_rep_spec E fuel inh e pos stk) as Hs. rewrite H in Hs. exact Hs.
Qed.

Theorem aparse_atomic_rep_ok_iff E fuel inh e pos stk pos' t stk' :
  aparse E (S fuel) inh (TAtomicRep e) pos stk = AOk (pos', t) stk' <->
  exists ts, t = NAtomicRep ts /\ length ts < fuel /\
    chain (aparse E fuel) inh e (length ts) pos stk ts pos' stk' /\
    aparse E fuel inh e pos' stk' = AFail.
Proof.
  split.
  - intros H. pose proof (aparse_atomic_rep_spec E fuel inh e pos stk) as Hs. rewrite H in Hs. exact Hs.
  - intros (ts & -> & Hl & Hc & Hf). cbn [aparse a_step].
    apply (a_arep_complete (aparse E fuel) inh e _ _ _ _ _ _ Hc Hf fuel [] Hl).
Qed.

(* fixed arrays: the converse of [aparse_arr] (Proofs/RepSpec.v), so that characterisation is exact too *)
Theorem aparse_arr_ok_iff E fuel inh n e pos stk pos' t stk' :
  aparse E (S fuel) inh (TArr n e) pos stk = AOk (pos', t) stk' <->
  exists ts, t = NArr ts /\ length ts = n /\ chain (aparse E fuel) inh e n pos stk ts pos' stk'.
Proof.
  split.
  - intros H. pose proof (aparse_arr E fuel inh n e pos stk) as Hs. rewrite H in Hs. exact Hs.
  - intros (ts & -> & _ & Hc). cbn [aparse a_step].
    apply (a_arr_complete (aparse E fuel) inh e _ _ _ _ _ _ Hc []).
Qed.

Theorem aparse_arr_fail_iff E fuel inh n e pos stk :
  aparse E (S fuel) inh (TArr n e) pos stk = AFail <->
  exists k ts pos' stk', k < n /\ chain (aparse E fuel) inh e k pos stk ts pos' stk' /\
    aparse E fuel inh e pos' stk' = AFail.
Proof.
  split.
  - intros H. pose proof (aparse_arr E fuel inh n e pos stk) as Hs. rewrite H in Hs. exact Hs.
  - intros (k & ts & p & s & Hk & Hc & Hf). cbn [aparse a_step].
    apply (a_arr_fail_complete (aparse E fuel) inh e _ _ _ _ _ _ Hc Hf n [] Hk).
Qed.

(* SkipChar<n> is a leaf: the real parse and check paths directly, no premise *)
Theorem tparse_skip_chars_spec E fuel inh n pos st :
  match tparse E (S fuel) inh (TSkipChars n) pos st with
  | Ok (pos', t) st' =>
      exists rest cls, i_get (e_inp E) pos = MOk rest /\ dec_n rest n = Some cls /\
        pos' = pos + total cls /\ pos' <= i_end (e_inp E) /\
        t = NSpanned KSkipChar pos pos' /\ st' = st
  | Fail st' => st' = st /\ exists rest, i_get (e_inp E) pos = MOk rest /\ dec_n rest n = None
  | Panic =>
      i_get (e_inp E) pos = MPanic \/
      exists rest cls, i_get (e_inp E) pos = MOk rest /\ dec_n rest n = Some cls /\
        i_span (e_inp E) pos (pos + total cls) = MPanic
  | Fuel => False
  end.
Proof.
  cbn [tparse step_p]. rewrite i_skip_dec_n.
  destruct (i_get (e_inp E) pos) as [rest|] eqn:Hg; cbn [mbind leaf_match lift]; [|left; reflexivity].
  destruct (dec_n rest n) as [cls|] eqn:Hd; [|split; [reflexivity|exists rest; split; [reflexivity|exact Hd]]].
  destruct (i_span (e_inp E) pos (pos + total cls)) as [sp|] eqn:Hsp; cbn [lift].
  - exists rest, cls. repeat split; try assumption.
    apply i_get_ok in Hg. apply dec_n_some in Hd. lia.
  - right. exists rest, cls. repeat split; assumption.
Qed.

(* the check path builds no span, so it cannot panic on the span *)
Theorem tcheck_skip_chars_spec E fuel inh n pos st :
  match tcheck E (S fuel) inh (TSkipChars n) pos st with
  | Ok pos' st' =>
      exists rest cls, i_get (e_inp E) pos = MOk rest /\ dec_n rest n = Some cls /\
        pos' = pos + total cls /\ pos' <= i_end (e_inp E) /\ st' = st
  | Fail st' => st' = st /\ exists rest, i_get (e_inp E) pos = MOk rest /\ dec_n rest n = None
  | Panic => i_get (e_inp E) pos = MPanic
  | Fuel => False
  end.
Proof.
  cbn [tcheck step_c]. rewrite i_skip_dec_n.
  destruct (i_get (e_inp E) pos) as [rest|] eqn:Hg; cbn [mbind leaf_check lift]; [|reflexivity].
  destruct (dec_n rest n) as [cls|] eqn:Hd; [|split; [reflexivity|exists rest; split; [reflexivity|exact Hd]]].
  exists rest, cls. repeat split; try assumption.
  apply i_get_ok in Hg. apply dec_n_some in Hd. lia.
Qed.

Theorem tparse_skip_chars_utf8 E fuel inh n pos st :
  good_inp (e_inp E) -> good_cur (e_inp E) pos ->
  exists m, valid_str m /\ i_get (e_inp E) pos = MOk (encode m) /\
    tparse E (S fuel) inh (TSkipChars n) pos st =
    (if n <=? length m
     then let pos' := pos + length (encode (firstn n m)) in Ok (pos', NSpanned KSkipChar pos pos') st
     else Fail st) /\
    tcheck E (S fuel) inh (TSkipChars n) pos st =
    (if n <=? length m then Ok (pos + length (encode (firstn n m))) st else Fail st).
Proof.
  intros HI Hc. destruct (i_skip_utf8 _ n pos HI Hc) as (m & Hm & Hg & Hs & Hsp).
  exists m. split; [exact Hm|]. split; [exact Hg|].
  cbn [tparse tcheck step_p step_c]. rewrite Hs. destruct (n <=? length m); [|split; reflexivity].
  cbn [leaf_match leaf_check lift]. rewrite Hsp. split; reflexivity.
Qed.

(* AtomicRepeat records no tracker event: it runs its element with a fresh tracker *)
Lemma ron_notrack_tr {X} E (f : state -> res X) st :
  match ron E (notrack f) st with
  | Ok _ st' => tr st' = tr st
  | Fail st' => tr st' = tr st
  | _ => True
  end.
Proof.
  unfold ron, notrack. destruct (e_ron_fixed E).
  - destruct (f st) as [x st'|st'| |]; try exact Logic.I; reflexivity.
  - destruct (f (with_stk (s_snapshot (stk st)) st)) as [x st'|st'| |]; try exact Logic.I.
    + cbn [with_tr stk]. destruct (s_clear_snapshot (stk st')) as [s|]; cbn [lift]; [reflexivity|exact Logic.I].
    + cbn [with_tr stk]. destruct (s_restore (stk st')) as [s|]; cbn [lift]; [reflexivity|exact Logic.I].
Qed.

Lemma arep_p_silent E P n : forall inh e pos st acc,
  match arep_p E P n inh e pos st acc with
  | Ok _ st' => tr st' = tr st
  | Fail _ => False
  | _ => True
  end.
Proof.
  induction n as [|n IH]; intros inh e pos st acc; cbn [arep_p]; [exact Logic.I|].
  pose proof (ron_notrack_tr E (P inh e pos) st) as Hr.
  destruct (ron E (notrack (P inh e pos)) st) as [[p t] st'|st'| |]; try exact Logic.I.
  - specialize (IH inh e p st' (t :: acc)).
    destruct (arep_p E P n inh e p st' (t :: acc)) as [x st''|st''| |]; try exact IH. congruence.
  - exact Hr.
Qed.

Lemma arep_c_silent E C n : forall inh e pos st,
  match arep_c E C n inh e pos st with
  | Ok _ st' => tr st' = tr st
  | Fail _ => False
  | _ => True
  end.
Proof.
  induction n as [|n IH]; intros inh e pos st; cbn [arep_c]; [exact Logic.I|].
  pose proof (ron_notrack_tr E (C inh e pos) st) as Hr.
  destruct (ron E (notrack (C inh e pos)) st) as [p st'|st'| |]; try exact Logic.I.
  - specialize (IH inh e p st').
    destruct (arep_c E C n inh e p st') as [x st''|st''| |]; try exact IH. congruence.
  - exact Hr.
Qed.

(* for EVERY environment (repaired or not), fuel, element, state: the real AtomicRepeat never returns None and
   leaves the tracker trace exactly as it found it *)
Theorem tparse_atomic_rep_silent E fuel inh e pos st :
  match tparse E fuel inh (TAtomicRep e) pos st with
  | Ok _ st' => tr st' = tr st
  | Fail _ => False
  | _ => True
  end.
Proof. destruct fuel as [|fuel]; [exact Logic.I|]. cbn [tparse step_p]. apply arep_p_silent. Qed.

Lemma tparse_atomic_rep_tr E fuel inh e pos st r st' :
  tparse E fuel inh (TAtomicRep e) pos st = Ok r st' -> tr st' = tr st.
Proof. intros H. pose proof (tparse_atomic_rep_silent E fuel inh e pos st) as Hs. rewrite H in Hs. exact Hs. Qed.

Theorem tcheck_atomic_rep_silent E fuel inh e pos st :
  match tcheck E fuel inh (TAtomicRep e) pos st with
  | Ok _ st' => tr st' = tr st
  | Fail _ => False
  | _ => True
  end.
Proof. destruct fuel as [|fuel]; [exact Logic.I|]. cbn [tcheck step_c]. apply arep_c_silent. Qed.

(* pairs on the real path, directly: the components run one after the other on the same state; a failure hands
   on the state the failing component left (restoring is the enclosing node's job) *)
Theorem tparse_pair_eq E fuel inh a b pos st :
  tparse E (S fuel) inh (TPair a b) pos st =
  match tparse E fuel inh a pos st with
  | Ok (p1, t1) st1 =>
      match tparse E fuel inh b p1 st1 with
      | Ok (p2, t2) st2 => Ok (p2, NPair t1 t2) st2
      | Fail st2 => Fail st2 | Panic => Panic | Fuel => Fuel
      end
  | Fail st1 => Fail st1 | Panic => Panic | Fuel => Fuel
  end.
Proof. reflexivity. Qed.

(* Option<T> on the real path never returns None -- for every environment, no premise *)
Theorem tparse_opt_never_fails E fuel inh e pos st st' : tparse E fuel inh (TOpt e) pos st <> Fail st'.
Proof.
  destruct fuel as [|fuel]; [discriminate|]. cbn [tparse step_p].
  destruct (ron E (tparse E fuel inh e pos) st) as [[p t] s|s| |]; discriminate.
Qed.

(* the characterisations as functions of "the reference run from the stack content c0 returned this" *)
Definition pair_ok_spec E fuel inh a b pos (c0 : list span) p t (c1 : list span) : Prop :=
  exists p1 ta s1 tb, t = NPair ta tb /\
    aparse E fuel inh a pos c0 = AOk (p1, ta) s1 /\ aparse E fuel inh b p1 s1 = AOk (p, tb) c1.

Definition pair_fail_spec E fuel inh a b pos (c0 : list span) : Prop :=
  aparse E fuel inh a pos c0 = AFail \/
  exists p1 ta s1, aparse E fuel inh a pos c0 = AOk (p1, ta) s1 /\ aparse E fuel inh b p1 s1 = AFail.

Definition opt_ok_spec E fuel inh e pos (c0 : list span) p t (c1 : list span) : Prop :=
  (exists t1, t = NOpt (Some t1) /\ aparse E fuel inh e pos c0 = AOk (p, t1) c1) \/
  (t = NOpt None /\ p = pos /\ c1 = c0 /\ aparse E fuel inh e pos c0 = AFail).

Definition atomic_rep_ok_spec E fuel inh e pos (c0 : list span) p t (c1 : list span) : Prop :=
  exists ts, t = NAtomicRep ts /\ length ts < fuel /\
    chain (aparse E fuel) inh e (length ts) pos c0 ts p c1 /\ aparse E fuel inh e p c1 = AFail.

Definition arr_ok_spec E fuel inh n e pos (c0 : list span) p t (c1 : list span) : Prop :=
  exists ts, t = NArr ts /\ length ts = n /\ chain (aparse E fuel) inh e n pos c0 ts p c1.

Definition arr_fail_spec E fuel inh n e pos (c0 : list span) : Prop :=
  exists k ts p' s', k < n /\ chain (aparse E fuel) inh e k pos c0 ts p' s' /\ aparse E fuel inh e p' s' = AFail.

Lemma aparse_opt_ok E fuel inh e pos c0 p t c1 :
  aparse E (S fuel) inh (TOpt e) pos c0 = AOk (p, t) c1 -> opt_ok_spec E fuel inh e pos c0 p t c1.
Proof.
  intros H. pose proof (aparse_opt_spec E fuel inh e pos c0) as Hs. rewrite H in Hs. exact Hs.
Qed.

Section Transfer.
  Variable E : env.
  Hypothesis HF : fixed E.

  Theorem tparse_pair_ok fuel inh a b pos st gs p t st' :
    SInv (stk st) gs ->
    aparse E (S fuel) inh (TPair a b) pos (cache (stk st)) <> APanic ->
    tparse E (S fuel) inh (TPair a b) pos st = Ok (p, t) st' ->
    pair_ok_spec E fuel inh a b pos (cache (stk st)) p t (cache (stk st')).
  Proof.
    intros Hi Hn Ht. apply aparse_pair_ok_iff, (tparse_ok_aparse E HF _ _ _ _ _ _ _ _ _ Hi Hn Ht).
  Qed.

  Theorem tparse_pair_fail fuel inh a b pos st gs st' :
    SInv (stk st) gs ->
    aparse E (S fuel) inh (TPair a b) pos (cache (stk st)) <> APanic ->
    tparse E (S fuel) inh (TPair a b) pos st = Fail st' ->
    pair_fail_spec E fuel inh a b pos (cache (stk st)).
  Proof.
    intros Hi Hn Ht. apply aparse_pair_fail_iff, (tparse_fail_aparse E HF _ _ _ _ _ _ _ Hi Hn Ht).
  Qed.

  Theorem tparse_opt_ok fuel inh e pos st gs p t st' :
    SInv (stk st) gs ->
    aparse E (S fuel) inh (TOpt e) pos (cache (stk st)) <> APanic ->
    tparse E (S fuel) inh (TOpt e) pos st = Ok (p, t) st' ->
    opt_ok_spec E fuel inh e pos (cache (stk st)) p t (cache (stk st')).
  Proof.
    intros Hi Hn Ht. apply aparse_opt_ok, (tparse_ok_aparse E HF _ _ _ _ _ _ _ _ _ Hi Hn Ht).
  Qed.

  Theorem tparse_atomic_rep_ok fuel inh e pos st gs p t st' :
    SInv (stk st) gs ->
    aparse E (S fuel) inh (TAtomicRep e) pos (cache (stk st)) <> APanic ->
    tparse E (S fuel) inh (TAtomicRep e) pos st = Ok (p, t) st' ->
    atomic_rep_ok_spec E fuel inh e pos (cache (stk st)) p t (cache (stk st')) /\ tr st' = tr st.
  Proof.
    intros Hi Hn Ht. split; [|exact (tparse_atomic_rep_tr _ _ _ _ _ _ _ _ Ht)].
    apply aparse_atomic_rep_ok_iff, (tparse_ok_aparse E HF _ _ _ _ _ _ _ _ _ Hi Hn Ht).
  Qed.

  Theorem tparse_arr_ok fuel inh n e pos st gs p t st' :
    SInv (stk st) gs ->
    aparse E (S fuel) inh (TArr n e) pos (cache (stk st)) <> APanic ->
    tparse E (S fuel) inh (TArr n e) pos st = Ok (p, t) st' ->
    arr_ok_spec E fuel inh n e pos (cache (stk st)) p t (cache (stk st')).
  Proof.
    intros Hi Hn Ht. apply aparse_arr_ok_iff, (tparse_ok_aparse E HF _ _ _ _ _ _ _ _ _ Hi Hn Ht).
  Qed.

  Theorem tparse_arr_fail fuel inh n e pos st gs st' :
    SInv (stk st) gs ->
    aparse E (S fuel) inh (TArr n e) pos (cache (stk st)) <> APanic ->
    tparse E (S fuel) inh (TArr n e) pos st = Fail st' ->
    arr_fail_spec E fuel inh n e pos (cache (stk st)).
  Proof.
    intros Hi Hn Ht. apply aparse_arr_fail_iff, (tparse_fail_aparse E HF _ _ _ _ _ _ _ Hi Hn Ht).
  Qed.

  (* from here on under the premises of [tparse_refines_aparse_good]: valid UTF-8 input and literals, good
     cursor and state; no hypothesis about panics *)
  Hypothesis HE : env_ok E.

  Theorem tparse_pair_ok_good fuel inh a b pos st gs p t st' :
    lits_ok (TPair a b) -> pre (e_inp E) pos st gs ->
    tparse E (S fuel) inh (TPair a b) pos st = Ok (p, t) st' ->
    pair_ok_spec E fuel inh a b pos (cache (stk st)) p t (cache (stk st')).
  Proof.
    intros Hl Hpre Ht. apply aparse_pair_ok_iff, (tparse_ok_aparse_good E HF HE _ _ _ _ _ _ _ _ _ Hl Hpre Ht).
  Qed.

  Theorem tparse_pair_fail_good fuel inh a b pos st gs st' :
    lits_ok (TPair a b) -> pre (e_inp E) pos st gs ->
    tparse E (S fuel) inh (TPair a b) pos st = Fail st' ->
    pair_fail_spec E fuel inh a b pos (cache (stk st)).
  Proof.
    intros Hl Hpre Ht. apply aparse_pair_fail_iff, (tparse_fail_aparse_good E HF HE _ _ _ _ _ _ _ Hl Hpre Ht).
  Qed.

  Theorem tparse_opt_ok_good fuel inh e pos st gs p t st' :
    lits_ok (TOpt e) -> pre (e_inp E) pos st gs ->
    tparse E (S fuel) inh (TOpt e) pos st = Ok (p, t) st' ->
    opt_ok_spec E fuel inh e pos (cache (stk st)) p t (cache (stk st')).
  Proof.
    intros Hl Hpre Ht. apply aparse_opt_ok, (tparse_ok_aparse_good E HF HE _ _ _ _ _ _ _ _ _ Hl Hpre Ht).
  Qed.

  Theorem tparse_atomic_rep_ok_good fuel inh e pos st gs p t st' :
    lits_ok (TAtomicRep e) -> pre (e_inp E) pos st gs ->
    tparse E (S fuel) inh (TAtomicRep e) pos st = Ok (p, t) st' ->
    atomic_rep_ok_spec E fuel inh e pos (cache (stk st)) p t (cache (stk st')) /\ tr st' = tr st.
  Proof.
    intros Hl Hpre Ht. split; [|exact (tparse_atomic_rep_tr _ _ _ _ _ _ _ _ Ht)].
    apply aparse_atomic_rep_ok_iff, (tparse_ok_aparse_good E HF HE _ _ _ _ _ _ _ _ _ Hl Hpre Ht).
  Qed.

  Theorem tparse_arr_ok_good fuel inh n e pos st gs p t st' :
    lits_ok (TArr n e) -> pre (e_inp E) pos st gs ->
    tparse E (S fuel) inh (TArr n e) pos st = Ok (p, t) st' ->
    arr_ok_spec E fuel inh n e pos (cache (stk st)) p t (cache (stk st')).
  Proof.
    intros Hl Hpre Ht. apply aparse_arr_ok_iff, (tparse_ok_aparse_good E HF HE _ _ _ _ _ _ _ _ _ Hl Hpre Ht).
  Qed.

  Theorem tparse_arr_fail_good fuel inh n e pos st gs st' :
    lits_ok (TArr n e) -> pre (e_inp E) pos st gs ->
    tparse E (S fuel) inh (TArr n e) pos st = Fail st' ->
    arr_fail_spec E fuel inh n e pos (cache (stk st)).
  Proof.
    intros Hl Hpre Ht. apply aparse_arr_fail_iff, (tparse_fail_aparse_good E HF HE _ _ _ _ _ _ _ Hl Hpre Ht).
  Qed.
End Transfer.

(* examples on multi-byte input (U+00E9 = C3 A9, U+4E2D = E4 B8 AD) *)
Definition x_e : list byte := [195; 169]%N.          (* "é" *)
Definition x_zh : list byte := [228; 184; 173]%N.    (* "中" *)

(* every rule is a normal rule matching "é" (so that running it records tracker events) *)
Definition x_env (s : list byte) : env :=
  mk_env (inp_of_str s) (fun _ => mk_rdef None EmBoth (TStr x_e)) SkipEmpty (fun _ _ => false) 0%N
         true true true.

(* SkipChar<3> on "éé": two characters only -- fails, both paths, nothing consumed *)
Example ex_skip3_short :
  aparse (x_env (x_e ++ x_e)) 5 true (TSkipChars 3) 0 [] = AFail /\
  tparse (x_env (x_e ++ x_e)) 5 true (TSkipChars 3) 0 st0 = Fail st0 /\
  tcheck (x_env (x_e ++ x_e)) 5 true (TSkipChars 3) 0 st0 = Fail st0.
Proof. vm_compute. repeat split. Qed.

(* SkipChar<3> on "éé中": consumes 2 + 2 + 3 = 7 bytes *)
Example ex_skip3_exact :
  aparse (x_env (x_e ++ x_e ++ x_zh)) 5 true (TSkipChars 3) 0 [] = AOk (7, NSpanned KSkipChar 0 7) [] /\
  tparse (x_env (x_e ++ x_e ++ x_zh)) 5 true (TSkipChars 3) 0 st0 = Ok (7, NSpanned KSkipChar 0 7) st0 /\
  tcheck (x_env (x_e ++ x_e ++ x_zh)) 5 true (TSkipChars 3) 0 st0 = Ok 7 st0 /\
  dec_n (x_e ++ x_e ++ x_zh) 3 = Some [(233%N, 2); (233%N, 2); (20013%N, 3)].
Proof. vm_compute. repeat split. Qed.

(* SkipChar<2> from the second character of "éé中x": bytes 2..7; the trailing "x" is not looked at *)
Example ex_skip2_mid :
  aparse (x_env (x_e ++ x_e ++ x_zh ++ [120%N])) 5 true (TSkipChars 2) 2 [] = AOk (7, NSpanned KSkipChar 2 7) [].
Proof. vm_compute. reflexivity. Qed.

(* SkipChar<0> always succeeds, consuming nothing, even at the end of the input *)
Example ex_skip0_end :
  aparse (x_env x_zh) 5 true (TSkipChars 0) 3 [] = AOk (3, NSpanned KSkipChar 3 3) [].
Proof. vm_compute. reflexivity. Qed.

(* ("é", ANY) on "é中": 2 + 3 bytes, nothing skipped in between *)
Example ex_pair_ok :
  aparse (x_env (x_e ++ x_zh)) 5 true (TPair (TStr x_e) TAny) 0 [] =
    AOk (5, NPair NStr (NChar CkAny 20013%N)) [] /\
  tparse (x_env (x_e ++ x_zh)) 5 true (TPair (TStr x_e) TAny) 0 st0 =
    Ok (5, NPair NStr (NChar CkAny 20013%N)) st0.
Proof. vm_compute. repeat split. Qed.

(* (PUSH("é"), "中") on "éé": the first component matches and pushes, the second fails: the pair fails; the
   real path hands on the state with the pushed span (restoring it is the enclosing node's job) *)
Example ex_pair_fail :
  aparse (x_env (x_e ++ x_e)) 5 true (TPair (TPush (TStr x_e)) (TStr x_zh)) 0 [] = AFail /\
  match tparse (x_env (x_e ++ x_e)) 5 true (TPair (TPush (TStr x_e)) (TStr x_zh)) 0 st0 with
  | Fail st' => cache (stk st') = [(0, 2)]
  | _ => False
  end.
Proof. vm_compute. repeat split. Qed.

(* Option<(PUSH("é"), "中")> on "éé": None, cursor 0, and the stack content is what it was (empty) *)
Example ex_opt_none :
  aparse (x_env (x_e ++ x_e)) 6 true (TOpt (TPair (TPush (TStr x_e)) (TStr x_zh))) 0 [] = AOk (0, NOpt None) [] /\
  match tparse (x_env (x_e ++ x_e)) 6 true (TOpt (TPair (TPush (TStr x_e)) (TStr x_zh))) 0 st0 with
  | Ok (p, t) st' => p = 0 /\ t = NOpt None /\ cache (stk st') = []
  | _ => False
  end.
Proof. vm_compute. repeat split. Qed.

(* Option<(PUSH("é"), "中")> on "é中": Some, 5 bytes, the pushed span stays *)
Example ex_opt_some :
  aparse (x_env (x_e ++ x_zh)) 6 true (TOpt (TPair (TPush (TStr x_e)) (TStr x_zh))) 0 [] =
    AOk (5, NOpt (Some (NPair (NPush NStr) NStr))) [(0, 2)] /\
  match tparse (x_env (x_e ++ x_zh)) 6 true (TOpt (TPair (TPush (TStr x_e)) (TStr x_zh))) 0 st0 with
  | Ok (p, t) st' => p = 5 /\ t = NOpt (Some (NPair (NPush NStr) NStr)) /\ cache (stk st') = [(0, 2)]
  | _ => False
  end.
Proof. vm_compute. repeat split. Qed.

(* AtomicRepeat<rule "é"> on "ééé中": the greedy run of three, 6 bytes; although every iteration runs a normal
   rule (which records enter/exit events), the tracker trace of the real path stays empty *)
Example ex_atomic_rep :
  aparse (x_env (x_e ++ x_e ++ x_e ++ x_zh)) 8 true (TAtomicRep (TRule 1%N SkOn)) 0 [] =
    AOk (6, NAtomicRep [NRule 1%N (Some NStr) (Some (0, 2)); NRule 1%N (Some NStr) (Some (2, 4));
                        NRule 1%N (Some NStr) (Some (4, 6))]) [] /\
  match tparse (x_env (x_e ++ x_e ++ x_e ++ x_zh)) 8 true (TAtomicRep (TRule 1%N SkOn)) 0 st0 with
  | Ok (p, NAtomicRep ts) st' => p = 6 /\ length ts = 3 /\ tr st' = [] /\ cache (stk st') = []
  | _ => False
  end /\
  (* the same rule outside AtomicRepeat does record events *)
  match tparse (x_env (x_e ++ x_e ++ x_e ++ x_zh)) 8 true (TRule 1%N SkOn) 0 st0 with
  | Ok _ st' => tr st' = [EExit 1%N 0 true; EEnter 1%N 0]
  | _ => False
  end.
Proof. vm_compute. repeat split. Qed.

(* AtomicRepeat on no match at all: the empty run, nothing consumed *)
Example ex_atomic_rep_empty :
  aparse (x_env x_zh) 8 true (TAtomicRep (TStr x_e)) 0 [] = AOk (0, NAtomicRep []) [].
Proof. vm_compute. reflexivity. Qed.

(* [ANY; 2] on "é中": 2 + 3 bytes; [ANY; 3] fails *)
Example ex_arr :
  aparse (x_env (x_e ++ x_zh)) 5 true (TArr 2 TAny) 0 [] =
    AOk (5, NArr [NChar CkAny 233%N; NChar CkAny 20013%N]) [] /\
  tparse (x_env (x_e ++ x_zh)) 5 true (TArr 2 TAny) 0 st0 =
    Ok (5, NArr [NChar CkAny 233%N; NChar CkAny 20013%N]) st0 /\
  aparse (x_env (x_e ++ x_zh)) 5 true (TArr 3 TAny) 0 [] = AFail.
Proof. vm_compute. repeat split. Qed.
