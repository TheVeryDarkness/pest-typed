(* C05: the parse path (concrete pest::Stack with snapshots, repaired restore_on_none) refines the
   reference interpreter with an immutable stack. *)
From Coq Require Import List.
From PT Require Import Model.Base Model.Stack Model.Texpr Model.Sem Model.Aparse.
From PT Require Import Proofs.StackInv Proofs.CheckParse Proofs.StackOps.
Import ListNotations.

Definition fixed (E : env) : Prop :=
  e_ron_fixed E = true /\ e_su_cut E = true /\ e_rep_min_after E = true.

Definition rel {A} (gs : list (list span)) (tp : res (nat * A)) (ap : ares (nat * A)) : Prop :=
  match tp, ap with
  | Ok (p, t) st', AOk (p', t') stk' =>
      p = p' /\ t = t' /\ cache (stk st') = stk' /\ SInv (stk st') gs
  | Fail st', AFail => SInv (stk st') gs
  | Fuel, AFuel => True
  | _, _ => False
  end.

Lemma rel_ok {X} gs (tp : res (nat * X)) ap p t st' :
  rel gs tp ap -> tp = Ok (p, t) st' -> ap = AOk (p, t) (cache (stk st')) /\ SInv (stk st') gs.
Proof.
  intros Hr ->. destruct ap as [[p' t'] s| | |]; try contradiction.
  destruct Hr as (<- & <- & <- & Hi). split; [reflexivity|exact Hi].
Qed.

Lemma rel_fail {X} gs (tp : res (nat * X)) ap st' :
  rel gs tp ap -> tp = Fail st' -> ap = AFail /\ SInv (stk st') gs.
Proof. intros Hr ->. destruct ap as [[p' t'] s| | |]; try contradiction. split; [reflexivity|exact Hr]. Qed.

Lemma rel_fuel_iff {A} gs (tp : res (nat * A)) ap : rel gs tp ap -> (tp = Fuel <-> ap = AFuel).
Proof.
  destruct tp as [[p t] st| | |]; destruct ap as [[p' t'] s| | |]; intros H; try contradiction;
    split; (discriminate || reflexivity).
Qed.

(* at the leaves the two runs correspond exactly, a panic of one being a panic of the other *)
Definition relp {A} gs (tp : res (nat * A)) (ap : ares (nat * A)) : Prop :=
  rel gs tp ap \/ (tp = Panic /\ ap = APanic).

Lemma relp_ok {B} gs p (t : B) st :
  SInv (stk st) gs -> relp gs (Ok (p, t) st) (AOk (p, t) (cache (stk st))).
Proof. intros Hi. left. repeat split. exact Hi. Qed.

Lemma relp_fail {B} gs st : SInv (stk st) gs -> @relp B gs (Fail st) AFail.
Proof. intros Hi. left. exact Hi. Qed.

(* how a repetition ends: a failure if the lower bound is not met *)
Lemma if_relp {B} gs (b : bool) p (t : B) st :
  SInv (stk st) gs ->
  relp gs (if b then Fail st else Ok (p, t) st) (if b then AFail else AOk (p, t) (cache (stk st))).
Proof. intros Hi. destruct b; [apply relp_fail, Hi|apply relp_ok, Hi]. Qed.

Lemma lift_relp {X B} gs (m : mres X) (fp : X -> res (nat * B)) (fa : X -> ares (nat * B)) :
  (forall x, relp gs (fp x) (fa x)) -> relp gs (lift m fp) (alift m fa).
Proof. intros H. destruct m; [apply H|right; split; reflexivity]. Qed.

Lemma leaf_relp gs (m : mres (option nat)) st (kp : nat -> res (nat * tnode)) (ka : nat -> ares (nat * tnode)) :
  SInv (stk st) gs -> (forall p, relp gs (kp p) (ka p)) -> relp gs (leaf_match m st kp) (aleaf m ka).
Proof. intros Hi Hk. apply lift_relp. intros [p|]; [apply Hk|apply relp_fail, Hi]. Qed.

(* a result built from something that may panic on both sides alike (a span, a text) *)
Lemma lift_ok_relp {X B} gs (m : mres X) p (nd : X -> B) st :
  SInv (stk st) gs ->
  relp gs (lift m (fun x => Ok (p, nd x) st)) (alift m (fun x => AOk (p, nd x) (cache (stk st)))).
Proof. intros Hi. apply lift_relp. intros x. apply relp_ok, Hi. Qed.

Lemma span_leaf_relp {X} gs m st (sp : nat -> mres X) (nd : nat -> tnode) :
  SInv (stk st) gs ->
  relp gs (leaf_match m st (fun p => lift (sp p) (fun _ => Ok (p, nd p) st)))
          (aleaf m (fun p => alift (sp p) (fun _ => AOk (p, nd p) (cache (stk st))))).
Proof. intros Hi. apply leaf_relp; [exact Hi|]. intros p. apply lift_ok_relp, Hi. Qed.

Lemma newline_relp E gs : forall alts pos st,
  SInv (stk st) gs -> relp gs (newline_p E alts pos st) (a_newline E alts pos (cache (stk st))).
Proof.
  induction alts as [|[bs k] alts IH]; intros pos st Hi; [apply relp_fail, Hi|].
  apply lift_relp. intros [p'|]; [apply relp_ok, Hi|apply IH, Hi].
Qed.

(* a predicate ends by giving back the content [cache (stk st0)] its snapshot saved *)
Lemma restore_ok_relp {B} gs st0 st p (t : B) :
  SInv (stk st) (cache (stk st0) :: gs) ->
  relp gs (lift (s_restore (stk st)) (fun s => Ok (p, t) (ev EPolEnd (with_stk s st)))) (AOk (p, t) (cache (stk st0))).
Proof.
  intros Hi. destruct (sinv_restore _ _ _ Hi) as (s & -> & <- & Hs).
  apply (relp_ok gs p t (ev EPolEnd (with_stk s st))), Hs.
Qed.

Lemma restore_fail_relp {B} gs g st :
  SInv (stk st) (g :: gs) ->
  @relp B gs (lift (s_restore (stk st)) (fun s => Fail (ev EPolEnd (with_stk s st)))) AFail.
Proof.
  intros Hi. destruct (sinv_restore _ _ _ Hi) as (s & -> & _ & Hs).
  apply (relp_fail gs (ev EPolEnd (with_stk s st))), Hs.
Qed.

(* every expression that calls neither interpreter recursively *)
Lemma step_leaf E P C A lf : fixed E -> forall inh e pos st gs,
  SInv (stk st) gs ->
  match e with
  | TStr _ | TInsens _ | TRange _ _ | TAny | TSoi | TEoi | TNewline | TCharBy _ | TSkipUntil _ | TSkipChars _
  | TPeek | TPop | TDrop | TPeekAll | TPopAll | TPeekSlice _ _ | TEmpty | TFail =>
      relp gs (step_p E P C lf inh e pos st) (a_step E A lf inh e pos (cache (stk st)))
  | _ => True
  end.
Proof.
  intros (_ & Hsu & _) inh e pos st gs Hi.
  destruct e; try exact I; cbn [step_p a_step].
  - (* TStr *) apply leaf_relp; [exact Hi|]. intros p. apply relp_ok, Hi.
  - (* TInsens *) apply leaf_relp; [exact Hi|]. intros p. do 2 (apply lift_relp; intros ?). apply relp_ok, Hi.
  - (* TRange *) apply lift_relp. intros [[p c]|]; [|apply relp_fail, Hi].
    do 2 (apply lift_relp; intros ?). destruct (dec1 _) as [[c' l]|]; [apply relp_ok, Hi|right; split; reflexivity].
  - (* TAny *) apply lift_relp. intros [[p c]|]; [apply relp_ok, Hi|apply relp_fail, Hi].
  - (* TSoi *) destruct (i_at_start (e_inp E) pos); [apply relp_ok, Hi|apply relp_fail, Hi].
  - (* TEoi *) destruct (i_at_end (e_inp E) pos); [apply relp_ok, Hi|apply relp_fail, Hi].
  - (* TNewline *) apply newline_relp, Hi.
  - (* TCharBy *) apply lift_relp. intros [[p' c]|]; [apply relp_ok, Hi|apply relp_fail, Hi].
  - (* TSkipUntil *) rewrite Hsu.
    destruct (i_skip_until (e_inp E) true ss pos) as [f p']. apply lift_ok_relp, Hi.
  - (* TSkipChars *) apply span_leaf_relp, Hi.
  - (* TPeek *)
    unfold s_peek. destruct (cache (stk st)) as [|sp c'] eqn:Hc; [apply relp_fail, Hi|].
    cbn [hd_error]. rewrite <- Hc. apply lift_relp. intros txt. apply span_leaf_relp, Hi.
  - (* TPop *)
    pose proof (sinv_pop (stk st) gs Hi) as Hpop. destruct (cache (stk st)) as [|sp c'].
    + rewrite Hpop. apply relp_fail, Hi.
    + destruct Hpop as (s' & -> & <- & Hi'). apply lift_relp. intros txt.
      apply (leaf_relp gs _ (with_stk s' st)); [exact Hi'|]. intros p. apply (relp_ok gs _ _ (with_stk s' st)), Hi'.
  - (* TDrop *)
    pose proof (sinv_pop (stk st) gs Hi) as Hpop. destruct (cache (stk st)) as [|sp c'].
    + rewrite Hpop. apply relp_fail, Hi.
    + destruct Hpop as (s' & -> & <- & Hi'). apply (relp_ok gs _ _ (with_stk s' st)), Hi'.
  - (* TPeekAll *)
    rewrite s_index_all. cbn [lift]. rewrite rev_involutive.
    apply span_leaf_relp, Hi.
  - (* TPopAll *)
    rewrite s_index_all. cbn [lift]. rewrite rev_involutive.
    apply leaf_relp; [exact Hi|]. intros p. apply lift_relp. intros _.
    destruct (sinv_pop_all (stk st) gs Hi) as [Hi' Hc]. rewrite <- Hc.
    apply (relp_ok gs _ _ (with_stk (s_pop_all (stk st)) st)), Hi'.
  - (* TPeekSlice *)
    rewrite stack_slice_a_slice. destruct (a_slice (cache (stk st)) a b) as [sps|]; [|apply relp_fail, Hi].
    apply span_leaf_relp, Hi.
  - (* TEmpty *) apply relp_ok, Hi.
  - (* TFail *) apply relp_fail, Hi.
Qed.

(* In the combinators the reference run may panic alone: the operand of a negative predicate and the body
   of a span-only rule run through the check path, which trips fewer assertions than the parse path the
   reference interpreter follows there (RefinePanic.v). *)
Definition R {A} gs (tp : res (nat * A)) (ap : ares (nat * A)) : Prop := ap <> APanic -> rel gs tp ap.

Lemma relp_R {B} gs (tp : res (nat * B)) ap : relp gs tp ap -> R gs tp ap.
Proof. intros [H|[_ ->]] Hn; [exact H|congruence]. Qed.

Lemma R_panic {B} gs (ap : ares (nat * B)) : R gs Panic ap -> ap = APanic.
Proof. intros H. destruct ap as [[p t] s| | |]; [| |reflexivity|]; destruct (H ltac:(discriminate)). Qed.

Lemma R_ok {B} gs p (t : B) st : SInv (stk st) gs -> R gs (Ok (p, t) st) (AOk (p, t) (cache (stk st))).
Proof. intros Hi. apply relp_R, relp_ok, Hi. Qed.

Lemma R_fail {B} gs st : SInv (stk st) gs -> @R B gs (Fail st) AFail.
Proof. intros Hi _. exact Hi. Qed.

(* [R] is compositional. Every combinator continues a run by a [match] of this shape on both sides;
   related runs (w.r.t. the open snapshots [gs1] of the sub-run) with related continuations give
   related results. *)
Lemma R_match {B B'} gs1 gs (tp : res (nat * B)) ap (kp : nat * B -> state -> res (nat * B')) fp ka fa :
  R gs1 tp ap ->
  (forall p t st, SInv (stk st) gs1 -> R gs (kp (p, t) st) (ka (p, t) (cache (stk st)))) ->
  (forall st, SInv (stk st) gs1 -> R gs (fp st) fa) ->
  R gs (match tp with Ok pa st => kp pa st | Fail st => fp st | Panic => Panic | Fuel => Fuel end)
       (match ap with AOk pa s => ka pa s | AFail => fa | APanic => APanic | AFuel => AFuel end).
Proof.
  unfold R at 1. intros Hr Hk Hf.
  destruct ap as [[p' t'] s| | |]; [| |congruence|]; specialize (Hr ltac:(discriminate));
    destruct tp as [[p t] st|st| |]; try contradiction.
  - destruct Hr as (<- & <- & <- & Hi). apply Hk, Hi.
  - apply Hf, Hr.
  - intros _. exact I.
Qed.

Lemma R_bind {B B'} gs (tp : res (nat * B)) ap (kp : nat * B -> state -> res (nat * B')) ka :
  R gs tp ap ->
  (forall p t st, SInv (stk st) gs -> R gs (kp (p, t) st) (ka (p, t) (cache (stk st)))) ->
  R gs (match tp with Ok pa st => kp pa st | Fail st => Fail st | Panic => Panic | Fuel => Fuel end)
       (match ap with AOk pa s => ka pa s | AFail => AFail | APanic => APanic | AFuel => AFuel end).
Proof. intros Hr Hk. apply (R_match gs); [exact Hr|exact Hk|]. intros st. apply R_fail. Qed.

(* the same where the real path calls the check path [c] for what the reference interpreter parses *)
Lemma R_match_check {B B'} gs1 gs c (tp : res (nat * B)) ap (kc : nat -> state -> res (nat * B')) fc ka fa :
  agree c tp -> R gs1 tp ap ->
  (forall p t st, SInv (stk st) gs1 -> R gs (kc p st) (ka (p, t) (cache (stk st)))) ->
  (forall st, SInv (stk st) gs1 -> R gs (fc st) fa) ->
  R gs (match c with Ok p st => kc p st | Fail st => fc st | Panic => Panic | Fuel => Fuel end)
       (match ap with AOk pa s => ka pa s | AFail => fa | APanic => APanic | AFuel => AFuel end).
Proof.
  unfold R at 1, agree. intros Hc Hr Hk Hf.
  destruct ap as [[p' t'] s| | |]; [| |congruence|]; specialize (Hr ltac:(discriminate));
    destruct tp as [[p t] st|st| |]; try contradiction; rewrite Hc by discriminate.
  - destruct Hr as (<- & <- & <- & Hi). apply (Hk p t), Hi.
  - apply Hf, Hr.
  - intros _. exact I.
Qed.

Lemma notrack_R {B} gs (fp : state -> res (nat * B)) (ap : ares (nat * B)) st :
  R gs (fp st) ap -> R gs (notrack fp st) ap.
Proof.
  unfold R, notrack. intros H Hn. specialize (H Hn).
  destruct (fp st) as [[p t] st'|st'| |]; exact H.
Qed.

(* restore_on_none (repaired) is transparent, except that after a failure it puts the saved content back *)
Lemma ron_fixed_match {A B} E (f : state -> res A) st (k : A -> state -> res B) g :
  e_ron_fixed E = true ->
  match ron E f st with Ok a s => k a s | Fail s => g s | Panic => Panic | Fuel => Fuel end =
  match f st with
  | Ok a s => k a s
  | Fail s => g (with_stk (s_push_all (cache (stk st)) (s_pop_all (stk s))) s)
  | Panic => Panic
  | Fuel => Fuel
  end.
Proof. intros H. unfold ron. rewrite H. destruct (f st); reflexivity. Qed.

Section Refine.
  Variable E : env.
  Hypothesis HF : fixed E.
  Variable P : bool -> texpr -> nat -> state -> res (nat * tnode).
  Variable C : bool -> texpr -> nat -> state -> res nat.
  Variable A : bool -> texpr -> nat -> list span -> ares (nat * tnode).
  Hypothesis HP : forall inh e pos st gs,
    SInv (stk st) gs -> R gs (P inh e pos st) (A inh e pos (cache (stk st))).
  Hypothesis HC : forall inh e pos st, agree (C inh e pos st) (P inh e pos st).

  (* after a failure of restore_on_none the stack content is the one before the attempt, from which the
     reference interpreter continues *)
  Lemma ron_match {B B'} gs (fp : state -> res (nat * B)) st ap
        (kp : nat * B -> state -> res (nat * B')) fp' ka fa :
    R gs (fp st) ap ->
    (forall p t st', SInv (stk st') gs -> R gs (kp (p, t) st') (ka (p, t) (cache (stk st')))) ->
    (forall st', SInv (stk st') gs -> cache (stk st') = cache (stk st) -> R gs (fp' st') fa) ->
    R gs (match ron E fp st with Ok pa st' => kp pa st' | Fail st' => fp' st' | Panic => Panic | Fuel => Fuel end)
         (match ap with AOk pa s => ka pa s | AFail => fa | APanic => APanic | AFuel => AFuel end).
  Proof.
    intros Hr Hk Hf. rewrite (ron_fixed_match E fp st kp fp' (proj1 HF)).
    apply (R_match gs); [exact Hr|exact Hk|]. intros st' Hi'.
    destruct (sinv_reinstall (cache (stk st)) _ gs Hi') as [Hi2 Hc]. apply Hf; assumption.
  Qed.

  Lemma arep_R n : forall inh e pos st acc gs,
    SInv (stk st) gs ->
    R gs (arep_p E P n inh e pos st acc) (a_arep A n inh e pos (cache (stk st)) acc).
  Proof.
    induction n as [|n IH]; intros inh e pos st acc gs Hi; [intros _; exact I|].
    apply ron_match; [apply notrack_R, HP, Hi|intros p t st' Hi'; apply IH, Hi'|].
    intros st' Hi' <-. apply R_ok, Hi'.
  Qed.

  Variable lf : nat.

  Lemma skip_R pos st gs :
    SInv (stk st) gs -> R gs (skip_p E P lf pos st) (a_skip E A lf pos (cache (stk st))).
  Proof. intros Hi. unfold skip_p, a_skip. destruct (e_skip E); [apply R_ok, Hi|apply arep_R, Hi]. Qed.

  Lemma pre_skip_R b doit pos st gs :
    SInv (stk st) gs ->
    R gs (pre_skip_p E P lf b doit pos st) (a_pre_skip E A lf b doit pos (cache (stk st))).
  Proof.
    intros Hi. unfold pre_skip_p, a_pre_skip. destruct b; [destruct doit|]; try apply R_ok, Hi.
    apply R_bind; [apply skip_R, Hi|]. intros p t st' Hi'. apply R_ok, Hi'.
  Qed.

  Lemma seq_R b inh : forall es first pos st acc gs,
    SInv (stk st) gs ->
    R gs (seq_p E P lf b inh es first pos st acc) (a_seq E A lf b inh es first pos (cache (stk st)) acc).
  Proof.
    induction es as [|e es IH]; intros first pos st acc gs Hi; [apply R_ok, Hi|].
    apply R_bind; [apply pre_skip_R, Hi|]. intros p1 sk st1 Hi1.
    apply R_bind; [apply HP, Hi1|]. intros p2 t st2 Hi2. apply IH, Hi2.
  Qed.

  Lemma choice_R inh n : forall es i pos st gs,
    SInv (stk st) gs ->
    R gs (choice_p E P inh n es i pos st) (a_choice A inh n es i pos (cache (stk st))).
  Proof.
    induction es as [|e es IH]; intros i pos st gs Hi; [apply R_fail, Hi|].
    apply ron_match; [apply HP, Hi|intros p t st' Hi'; apply R_ok, Hi'|].
    intros st' Hi' <-. apply IH, Hi'.
  Qed.

  Lemma unit_R b inh e i pos st gs :
    SInv (stk st) gs ->
    R gs (unit_p E P lf b inh e i pos st) (a_unit E A lf b inh e i pos (cache (stk st))).
  Proof.
    intros Hi. apply R_bind; [apply pre_skip_R, Hi|]. intros p1 sk st1 Hi1.
    apply R_bind; [apply HP, Hi1|]. intros p2 t st2 Hi2. apply R_ok, Hi2.
  Qed.

  Lemma rep_R b inh mn mx e : forall n i pos st acc gs,
    SInv (stk st) gs ->
    R gs (rep_p E P lf n b inh mn mx e i pos st acc) (a_rep E A lf n b inh mn mx e i pos (cache (stk st)) acc).
  Proof.
    induction n as [|n IH]; intros i pos st acc gs Hi; cbn [rep_p a_rep]; rewrite (proj2 (proj2 HF)); cbn [andb].
    - destruct (below i mx); [intros _; exact I|apply relp_R, if_relp, Hi].
    - destruct (below i mx); [|apply relp_R, if_relp, Hi].
      apply ron_match; [apply unit_R, Hi|intros p t st' Hi'; apply IH, Hi'|].
      intros st' Hi' <-. apply relp_R, if_relp, Hi'.
  Qed.

  Lemma arr_R inh e : forall n pos st acc gs,
    SInv (stk st) gs ->
    R gs (arr_p P n inh e pos st acc) (a_arr A n inh e pos (cache (stk st)) acc).
  Proof.
    induction n as [|n IH]; intros pos st acc gs Hi; [apply R_ok, Hi|].
    apply R_bind; [apply HP, Hi|]. intros p t st' Hi'. apply IH, Hi'.
  Qed.

  (* the operand of a predicate runs under a fresh snapshot *)
  Lemma snap_R b inh e pos st gs :
    SInv (stk st) gs ->
    R (cache (stk st) :: gs) (P inh e pos (with_stk (s_snapshot (stk st)) (ev (EPol b) st)))
      (A inh e pos (cache (stk st))).
  Proof.
    intros Hi. exact (HP inh e pos (with_stk (s_snapshot (stk st)) (ev (EPol b) st)) _ (sinv_snapshot _ _ Hi)).
  Qed.

  Lemma step_R inh e pos st gs :
    SInv (stk st) gs ->
    R gs (step_p E P C lf inh e pos st) (a_step E A lf inh e pos (cache (stk st))).
  Proof.
    intros Hi. pose proof (step_leaf E P C A lf HF inh e pos st gs Hi) as Hleaf.
    destruct e; try exact (relp_R _ _ _ Hleaf); clear Hleaf; cbn [step_p a_step].
    - (* TSeq *) apply seq_R, Hi.
    - (* TChoice *) apply choice_R, Hi.
    - (* TOpt *)
      apply ron_match; [apply HP, Hi|intros p t st' Hi'; apply R_ok, Hi'|].
      intros st' Hi' <-. apply R_ok, Hi'.
    - (* TRep *) apply rep_R, Hi.
    - (* TAtomicRep *) apply arep_R, Hi.
    - (* TPos *)
      apply (R_match (cache (stk st) :: gs)); [apply snap_R, Hi| |].
      + intros p t st' Hi'. apply relp_R, restore_ok_relp, Hi'.
      + intros st' Hi'. eapply relp_R, restore_fail_relp, Hi'.
    - (* TNeg *)
      eapply (R_match_check (cache (stk st) :: gs)); [apply HC|apply snap_R, Hi| |].
      + intros p t st' Hi'. eapply relp_R, restore_fail_relp, Hi'.
      + intros st' Hi'. apply relp_R, restore_ok_relp, Hi'.
    - (* TPush *)
      apply R_bind; [apply HP, Hi|]. intros p t st' Hi'. apply relp_R, lift_relp. intros sp.
      apply (relp_ok gs _ _ (with_stk (s_push sp (stk st')) st')), sinv_push, Hi'.
    - (* TArr *) apply arr_R, Hi.
    - (* TPair *)
      apply R_bind; [apply HP, Hi|]. intros p1 t1 st1 Hi1.
      apply R_bind; [apply HP, Hi1|]. intros p2 t2 st2 Hi2. apply R_ok, Hi2.
    - (* TRule *)
      destruct (r_emis (e_rules E r)).
      + (* span-only: matched through the check path *)
        eapply (R_match_check gs); [apply HC|apply (HP _ _ _ (ev _ st)), Hi| |].
        * intros p t st' Hi'. apply relp_R, (lift_ok_relp gs _ _ _ (ev _ st')), Hi'.
        * intros st' Hi'. apply (R_fail gs (ev _ st')), Hi'.
      + apply R_bind; [apply HP, Hi|]. intros p t st' Hi'. apply R_ok, Hi'.
      + apply (R_match gs); [apply (HP _ _ _ (ev _ st)), Hi| |].
        * intros p t st' Hi'. apply relp_R, (lift_ok_relp gs _ _ _ (ev _ st')), Hi'.
        * intros st' Hi'. apply (R_fail gs (ev _ st')), Hi'.
  Qed.
End Refine.

Theorem tparse_refines_aparse E : fixed E -> forall fuel inh e pos st gs,
  SInv (stk st) gs ->
  aparse E fuel inh e pos (cache (stk st)) <> APanic ->
  rel gs (tparse E fuel inh e pos st) (aparse E fuel inh e pos (cache (stk st))).
Proof.
  intros HF. induction fuel as [|n IH]; intros inh e pos st gs Hi; [intros _; exact I|].
  apply (step_R E HF (tparse E n) (tcheck E n) (aparse E n) IH (check_is_parse E n)), Hi.
Qed.

Corollary tparse_ok_aparse E : fixed E -> forall fuel inh e pos st gs p t st',
  SInv (stk st) gs ->
  aparse E fuel inh e pos (cache (stk st)) <> APanic ->
  tparse E fuel inh e pos st = Ok (p, t) st' ->
  aparse E fuel inh e pos (cache (stk st)) = AOk (p, t) (cache (stk st')) /\ SInv (stk st') gs.
Proof. intros HF fuel inh e pos st gs p t st' Hi Hn. apply rel_ok, tparse_refines_aparse; assumption. Qed.

Corollary tparse_fail_aparse E : fixed E -> forall fuel inh e pos st gs st',
  SInv (stk st) gs ->
  aparse E fuel inh e pos (cache (stk st)) <> APanic ->
  tparse E fuel inh e pos st = Fail st' ->
  aparse E fuel inh e pos (cache (stk st)) = AFail /\ SInv (stk st') gs.
Proof. intros HF fuel inh e pos st gs st' Hi Hn. apply rel_fail, tparse_refines_aparse; assumption. Qed.
