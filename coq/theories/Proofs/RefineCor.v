(* Corollaries of the refinement theorem and facts about the reference interpreter used by C05. *)
From Coq Require Import List NArith.
From PT Require Import Model.Base Model.Stack Model.Texpr Model.Sem Model.Aparse.
From PT Require Import Proofs.StackInv Proofs.Refine.
Import ListNotations.

(* entry point: a fresh stack satisfies the invariant *)
Theorem try_parse_partial_refines E fuel r :
  fixed E ->
  aparse E fuel true (TRule r SkOn) (i_start (e_inp E)) [] <> APanic ->
  rel [] (try_parse_partial E fuel r) (aparse E fuel true (TRule r SkOn) (i_start (e_inp E)) []).
Proof.
  intros HF Hn. unfold try_parse_partial.
  apply (tparse_refines_aparse E HF fuel true (TRule r SkOn) (i_start (e_inp E)) st0 []); [exact I|exact Hn].
Qed.

(* predicates give the stack back, and consume nothing, also when their operand matches *)
Lemma aparse_pred_restores E fuel inh (b : bool) e pos stk p t stk' :
  aparse E fuel inh (if b then TPos e else TNeg e) pos stk = AOk (p, t) stk' -> p = pos /\ stk' = stk.
Proof.
  destruct fuel as [|n]; [discriminate|]. destruct b; cbn [aparse a_step];
  destruct (aparse E n inh e pos stk) as [[p1 t1] s1| | |]; intros [= <- _ <-]; split; reflexivity.
Qed.

Lemma aparse_neg_restores E fuel inh e pos stk p t stk' :
  aparse E fuel inh (TNeg e) pos stk = AOk (p, t) stk' -> p = pos /\ stk' = stk.
Proof. exact (aparse_pred_restores E fuel inh false e pos stk p t stk'). Qed.

(* hence so does the real path wherever it refines the reference run *)
Lemma rel_pos_restores E gs fuel inh e pos st p t st' :
  rel gs (tparse E fuel inh (TPos e) pos st) (aparse E fuel inh (TPos e) pos (cache (stk st))) ->
  tparse E fuel inh (TPos e) pos st = Ok (p, t) st' ->
  p = pos /\ cache (stk st') = cache (stk st) /\ SInv (stk st') gs.
Proof.
  intros Hr Ht. destruct (rel_ok _ _ _ _ _ _ Hr Ht) as [Ha Hi].
  destruct (aparse_pred_restores E fuel inh true _ _ _ _ _ _ Ha) as [Hp Hc]. exact (conj Hp (conj Hc Hi)).
Qed.

Theorem pred_restores E : fixed E -> forall fuel inh e pos st gs p t st',
  SInv (stk st) gs ->
  aparse E fuel inh (TPos e) pos (cache (stk st)) <> APanic ->
  tparse E fuel inh (TPos e) pos st = Ok (p, t) st' ->
  p = pos /\ cache (stk st') = cache (stk st) /\ SInv (stk st') gs.
Proof.
  intros HF fuel inh e pos st gs p t st' Hi Hn. apply rel_pos_restores, tparse_refines_aparse; assumption.
Qed.

(* the unrepaired restore_on_none (snapshot / clear_snapshot / restore) does not refine: a witness *)
Definition w_env (ron_fixed : bool) (input : list byte) : env :=
  mk_env (inp_of_str input) (fun _ => mk_rdef None EmBoth TFail) SkipEmpty (fun _ _ => false) 0%N
         ron_fixed true true.

(* PUSH("a") ~ ((POP? ~ "x") | "") ~ PEEK *)
Definition w_expr : texpr :=
  TSeq SkOff [TPush (TStr [97%N]); TChoice [TSeq SkOff [TOpt TPop; TStr [120%N]]; TStr []]; TPeek].

Definition is_fail {A} (r : res A) : bool := match r with Fail _ => true | _ => false end.
Definition is_aok {A} (r : ares A) : bool := match r with AOk _ _ => true | _ => false end.

Lemma unrepaired_loses_pop :
  is_fail (tparse (w_env false [97; 97]%N) 20 true w_expr 0 st0) = true /\
  is_aok (aparse (w_env false [97; 97]%N) 20 true w_expr 0 []) = true.
Proof. vm_compute. split; reflexivity. Qed.

(* the same input on the repaired code: accepted, offset 2, as the reference says *)
Example repaired_accepts :
  match tparse (w_env true [97; 97]%N) 20 true w_expr 0 st0 with
  | Ok (p, _) st' => p = 2 /\ cache (stk st') = [(0, 1)]
  | _ => False
  end.
Proof. vm_compute. split; reflexivity. Qed.

(* the hypotheses of the refinement theorem are met by a non-trivial run *)
Example refinement_premises_hold :
  fixed (w_env true [97; 97]%N) /\ SInv (stk st0) [] /\
  aparse (w_env true [97; 97]%N) 20 true w_expr 0 (cache (stk st0)) <> APanic.
Proof. split; [repeat split|split; [exact I|vm_compute; discriminate]]. Qed.
