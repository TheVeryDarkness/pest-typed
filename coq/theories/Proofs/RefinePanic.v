(* C05 / C01: how panics of the real parse path [tparse] and of the reference interpreter [aparse] correspond.

   [tparse = Panic -> aparse = APanic] holds on any input, valid UTF-8 or not (a one-line consequence of Refine.v).
   The converse is FALSE of the model ([aparse_panic_tparse_refuted]): the operand of a negative predicate (and
   the body of a span-only rule) runs through the *check* path, which builds no `Span` and decodes no `char`,
   hence does not trip the debug assertions / `unwrap`s the parse path of the same operand trips; the reference
   interpreter runs the parse path there.  Every witness needs a cursor that is not on a character boundary
   inside the input, i.e. an input / literal that no `&str` can be.
   Under the hypotheses of C09 ([env_ok]: valid UTF-8 input and literals; a good cursor and state) neither side
   panics, and the refinement holds with no hypothesis about panics at all ([tparse_refines_aparse_good]): one
   induction on fuel establishes the total relation [rel'] (= [rel] extended with (Panic, APanic)) along the
   structure of Refine.v, the no-panic facts of the real path being taken from Boundary.v. *)
From Coq Require Import List NArith.
From PT Require Import Model.Base Model.Stack Model.Texpr Model.Sem Model.Aparse.
From PT Require Import Proofs.StackInv Proofs.CheckParse Proofs.Refine Proofs.RefineCor.
From PT Require Import Proofs.BoundaryOps Proofs.Boundary.
Import ListNotations.

(* [rel] extended with "both panic" *)
Definition rel' {A} (gs : list (list span)) (tp : res (nat * A)) (ap : ares (nat * A)) : Prop :=
  match tp, ap with
  | Ok (p, t) st', AOk (p', t') stk' =>
      p = p' /\ t = t' /\ cache (stk st') = stk' /\ SInv (stk st') gs
  | Fail st', AFail => SInv (stk st') gs
  | Fuel, AFuel => True
  | Panic, APanic => True
  | _, _ => False
  end.

Lemma relp_rel' {A} gs (tp : res (nat * A)) ap : relp gs tp ap -> rel' gs tp ap.
Proof.
  intros [H|[-> ->]]; [|exact I].
  destruct tp as [[p t] st'|st'| |]; destruct ap as [[p' t'] stk'| | |]; try exact H; exact I.
Qed.

Lemma rel_rel' {A} gs (tp : res (nat * A)) ap : rel gs tp ap -> rel' gs tp ap.
Proof. intros H. apply relp_rel'. left. exact H. Qed.

Lemma rel'_rel {A} gs (tp : res (nat * A)) ap : rel' gs tp ap -> tp <> Panic -> rel gs tp ap.
Proof.
  destruct tp as [[p t] st'|st'| |]; destruct ap as [[p' t'] stk'| | |]; intros H Hn; try exact H.
  now elim Hn.
Qed.

Lemma rel'_panic_iff {A} gs (tp : res (nat * A)) ap : rel' gs tp ap -> (ap = APanic <-> tp = Panic).
Proof.
  destruct tp as [[p t] st'|st'| |]; destruct ap as [[p' t'] stk'| | |]; intros H; try contradiction;
    split; (discriminate || reflexivity).
Qed.

Theorem tparse_panic_aparse E : fixed E -> forall fuel inh e pos st gs,
  SInv (stk st) gs ->
  tparse E fuel inh e pos st = Panic -> aparse E fuel inh e pos (cache (stk st)) = APanic.
Proof.
  intros HF fuel inh e pos st gs Hi Hp. apply (R_panic gs). rewrite <- Hp.
  exact (tparse_refines_aparse E HF fuel inh e pos st gs Hi).
Qed.

(* !(skip-until with no needle), cursor 3 behind the end of the (valid) input "ab":
   the check path of the operand returns end() and builds no span; its parse path asserts 3 <= 2 *)
Lemma aparse_panic_tparse_refuted :
  fixed (w_env true [97; 98]%N) /\ SInv (stk st0) [] /\
  aparse (w_env true [97; 98]%N) 5 true (TNeg (TSkipUntil [])) 3 (cache (stk st0)) = APanic /\
  is_fail (tparse (w_env true [97; 98]%N) 5 true (TNeg (TSkipUntil [])) 3 st0) = true.
Proof. split; [repeat split|split; [exact I|vm_compute; split; reflexivity]]. Qed.

(* the same from a good cursor (0, the start of the valid input "\u{200}" = C8 80), reached through a
   literal that is not valid UTF-8 (no Rust `&str`): "\xC8" ~ !(skip-until) *)
Lemma aparse_panic_tparse_refuted_lit :
  aparse (w_env true [200; 128]%N) 9 true (TSeq SkOff [TStr [200%N]; TNeg (TSkipUntil [])]) 0 (cache (stk st0)) = APanic /\
  is_fail (tparse (w_env true [200; 128]%N) 9 true (TSeq SkOff [TStr [200%N]; TNeg (TSkipUntil [])]) 0 st0) = true.
Proof. vm_compute. split; reflexivity. Qed.

(* hence the refinement with its hypothesis moved to the real path is false too *)
Lemma tparse_refines_aparse'_refuted :
  exists E fuel inh e pos st gs,
    fixed E /\ SInv (stk st) gs /\ tparse E fuel inh e pos st <> Panic /\
    ~ rel gs (tparse E fuel inh e pos st) (aparse E fuel inh e pos (cache (stk st))).
Proof.
  exists (w_env true [97; 98]%N), 5, true, (TNeg (TSkipUntil [])), 3, st0, [].
  destruct aparse_panic_tparse_refuted as (HF & Hi & Ha & Ht).
  split; [exact HF|]. split; [exact Hi|]. rewrite Ha.
  destruct (tparse (w_env true [97; 98]%N) 5 true (TNeg (TSkipUntil [])) 3 st0) as [[p t] st'|st'| |];
    try discriminate Ht.
  split; [discriminate|]. intros H. exact H.
Qed.

Section RefineGood.
  Variable E : env.
  Hypothesis HF : fixed E.
  Hypothesis HE : env_ok E.
  Variable P : bool -> texpr -> nat -> state -> res (nat * tnode).
  Variable C : bool -> texpr -> nat -> state -> res nat.
  Variable A : bool -> texpr -> nat -> list span -> ares (nat * tnode).
  Local Notation I := (e_inp E).
  Hypothesis HPo : forall inh e pos st gs,
    lits_ok e -> pre I pos st gs -> post I (good_node I) gs pos (P inh e pos st).
  Hypothesis HCo : forall inh e pos st gs,
    lits_ok e -> pre I pos st gs -> postc I gs pos (C inh e pos st).
  Hypothesis HPA : forall inh e pos st gs,
    lits_ok e -> pre I pos st gs -> rel' gs (P inh e pos st) (A inh e pos (cache (stk st))).
  Hypothesis HC : forall inh e pos st,
    P inh e pos st <> Panic -> C inh e pos st = erase (P inh e pos st).

  (* [rel'] and [post] together: what is known about a sub-run *)
  Definition gd {B} (G : B -> Prop) (gs : list (list span)) (c : nat)
             (tp : res (nat * B)) (ap : ares (nat * B)) : Prop :=
    match tp, ap with
    | Ok (p, t) st', AOk (p', t') stk' =>
        p = p' /\ t = t' /\ cache (stk st') = stk' /\
        c <= p /\ good_cur I p /\ G t /\ good_state I st' /\ SInv (stk st') gs
    | Fail st', AFail => good_state I st' /\ SInv (stk st') gs
    | Fuel, AFuel => True
    | _, _ => False
    end.

  Lemma gd_intro {B} (G : B -> Prop) gs c (tp : res (nat * B)) (ap : ares (nat * B)) :
    rel' gs tp ap -> post I G gs c tp -> gd G gs c tp ap.
  Proof.
    destruct tp as [[p t] st'|st'| |]; destruct ap as [[p' t'] stk'| | |]; intros Hr Hp; try contradiction.
    - destruct Hr as (H1 & H2 & H3 & _). exact (conj H1 (conj H2 (conj H3 Hp))).
    - exact Hp.
    - exact Hr.
  Qed.

  Lemma sub_gd inh e pos st gs :
    lits_ok e -> pre I pos st gs ->
    gd (good_node I) gs pos (P inh e pos st) (A inh e pos (cache (stk st))).
  Proof. intros Hl Hpre. apply gd_intro; [apply HPA|apply HPo]; assumption. Qed.

  (* The counterpart of [R_match]: a good sub-run (w.r.t. the open snapshots [gs1]) leaves a good cursor
     and state to its continuations; only [rel'] is claimed of the whole, Boundary.v says the rest. *)
  Lemma gd_match {B B'} (G : B -> Prop) gs1 gs c (tp : res (nat * B)) ap
        (kp : nat * B -> state -> res (nat * B')) fp ka fa :
    gd G gs1 c tp ap ->
    (forall p t st, pre I p st gs1 -> rel' gs (kp (p, t) st) (ka (p, t) (cache (stk st)))) ->
    (forall st, good_state I st -> SInv (stk st) gs1 -> rel' gs (fp st) fa) ->
    rel' gs (match tp with Ok pa st => kp pa st | Fail st => fp st | Panic => Panic | Fuel => Fuel end)
            (match ap with AOk pa s => ka pa s | AFail => fa | APanic => APanic | AFuel => AFuel end).
  Proof.
    intros Hg Hk Hf. destruct tp as [[p t] st|st| |]; destruct ap as [[p' t'] s| | |]; try contradiction.
    - destruct Hg as (<- & <- & <- & _ & Hc & _ & Hs & Hi). apply Hk, (mk_pre I p st gs1 Hc Hs Hi).
    - apply Hf; apply Hg.
    - exact Logic.I.
  Qed.

  Lemma gd_bind {B B'} (G : B -> Prop) gs c (tp : res (nat * B)) ap (kp : nat * B -> state -> res (nat * B')) ka :
    gd G gs c tp ap ->
    (forall p t st, pre I p st gs -> rel' gs (kp (p, t) st) (ka (p, t) (cache (stk st)))) ->
    rel' gs (match tp with Ok pa st => kp pa st | Fail st => Fail st | Panic => Panic | Fuel => Fuel end)
            (match ap with AOk pa s => ka pa s | AFail => AFail | APanic => APanic | AFuel => AFuel end).
  Proof. intros Hg Hk. apply (gd_match G gs gs c); [exact Hg|exact Hk|]. intros st _ Hi. exact Hi. Qed.

  (* where the real path calls the check path: the parse path of a good sub-run does not panic *)
  Lemma gd_match_check {B B'} (G : B -> Prop) gs1 gs c0 c (tp : res (nat * B)) ap
        (kc : nat -> state -> res (nat * B')) fc ka fa :
    agree c tp -> gd G gs1 c0 tp ap ->
    (forall p t st, pre I p st gs1 -> rel' gs (kc p st) (ka (p, t) (cache (stk st)))) ->
    (forall st, good_state I st -> SInv (stk st) gs1 -> rel' gs (fc st) fa) ->
    rel' gs (match c with Ok p st => kc p st | Fail st => fc st | Panic => Panic | Fuel => Fuel end)
            (match ap with AOk pa s => ka pa s | AFail => fa | APanic => APanic | AFuel => AFuel end).
  Proof.
    unfold agree. intros Hc Hg Hk Hf.
    destruct tp as [[p t] st|st| |]; destruct ap as [[p' t'] s| | |]; try contradiction; rewrite Hc by discriminate.
    - destruct Hg as (<- & <- & <- & _ & Hc' & _ & Hs & Hi). apply (Hk p t), (mk_pre I p st gs1 Hc' Hs Hi).
    - apply Hf; apply Hg.
    - exact Logic.I.
  Qed.

  Lemma ron_gd_match {B B'} (G : B -> Prop) gs c (fp : state -> res (nat * B)) st ap
        (kp : nat * B -> state -> res (nat * B')) fp' ka fa :
    good_state I st -> gd G gs c (fp st) ap ->
    (forall p t st', pre I p st' gs -> rel' gs (kp (p, t) st') (ka (p, t) (cache (stk st')))) ->
    (forall st', good_state I st' -> SInv (stk st') gs -> cache (stk st') = cache (stk st) -> rel' gs (fp' st') fa) ->
    rel' gs (match ron E fp st with Ok pa st' => kp pa st' | Fail st' => fp' st' | Panic => Panic | Fuel => Fuel end)
            (match ap with AOk pa s => ka pa s | AFail => fa | APanic => APanic | AFuel => AFuel end).
  Proof.
    intros Hst Hg Hk Hf. rewrite (ron_fixed_match E fp st kp fp' (proj1 HF)).
    apply (gd_match G gs gs c); [exact Hg|exact Hk|]. intros st' [Hstk Htr] Hi.
    destruct (sinv_reinstall (cache (stk st)) (stk st') gs Hi) as [Hi2 Hc2].
    apply Hf; [|exact Hi2|exact Hc2]. split; [|exact Htr]. apply good_reinstall; [apply Hst|exact Hstk].
  Qed.

  Lemma notrack_gd {B} (G : B -> Prop) gs c (fp : state -> res (nat * B)) (ap : ares (nat * B)) st :
    good_state I st -> gd G gs c (fp st) ap -> gd G gs c (notrack fp st) ap.
  Proof.
    intros Hst Hg. unfold notrack.
    destruct (fp st) as [[p t] st'|st'| |]; destruct ap as [[p' t'] stk'| | |]; try exact Hg.
    - destruct Hg as (H1 & H2 & H3 & H4 & H5 & H6 & H7 & H8). repeat (split; [assumption|]).
      split; [apply good_state_with_tr; assumption|exact H8].
    - split; [apply good_state_with_tr; [exact Hst|apply Hg]|apply Hg].
  Qed.

  Lemma rel'_ok {B} gs p (t : B) st : SInv (stk st) gs -> rel' gs (Ok (p, t) st) (AOk (p, t) (cache (stk st))).
  Proof. intros Hi. apply relp_rel', relp_ok, Hi. Qed.

  Lemma arep_rel' n : forall inh e pos st acc gs,
    lits_ok e -> pre I pos st gs ->
    rel' gs (arep_p E P n inh e pos st acc) (a_arep A n inh e pos (cache (stk st)) acc).
  Proof.
    induction n as [|n IH]; intros inh e pos st acc gs Hl Hpre; [exact Logic.I|].
    apply (ron_gd_match (good_node I) gs pos); [apply Hpre|apply notrack_gd; [apply Hpre|apply sub_gd; assumption]| |].
    - intros p t st' Hpre'. apply IH; assumption.
    - intros st' _ Hi' <-. apply rel'_ok, Hi'.
  Qed.

  Variable lf : nat.

  Lemma skip_rel' pos st gs :
    pre I pos st gs -> rel' gs (skip_p E P lf pos st) (a_skip E A lf pos (cache (stk st))).
  Proof using HF HE HPo HPA.
    intros Hpre. pose proof HE as (_ & _ & _ & _ & Hsk). unfold skip_p, a_skip.
    destruct (e_skip E) as [|e]; [apply rel'_ok, Hpre|apply arep_rel'; assumption].
  Qed.

  Lemma skip_gd pos st gs :
    pre I pos st gs -> gd (good_node I) gs pos (skip_p E P lf pos st) (a_skip E A lf pos (cache (stk st))).
  Proof using HF HE HPo HCo HPA.
    intros Hpre. apply gd_intro; [apply skip_rel'; exact Hpre|].
    apply (skip_post E HE P HPo lf pos st gs Hpre).
  Qed.

  Lemma pre_skip_rel' b doit pos st gs :
    pre I pos st gs ->
    rel' gs (pre_skip_p E P lf b doit pos st) (a_pre_skip E A lf b doit pos (cache (stk st))).
  Proof.
    intros Hpre. unfold pre_skip_p, a_pre_skip. destruct b; [destruct doit|]; try apply rel'_ok, Hpre.
    eapply gd_bind; [apply skip_gd, Hpre|]. intros p t st' Hpre'. apply rel'_ok, Hpre'.
  Qed.

  Lemma pre_skip_gd b doit pos st gs :
    pre I pos st gs ->
    gd (Forall (good_node I)) gs pos (pre_skip_p E P lf b doit pos st)
       (a_pre_skip E A lf b doit pos (cache (stk st))).
  Proof.
    intros Hpre. apply gd_intro; [apply pre_skip_rel'; exact Hpre|].
    apply (pre_skip_post E HE P HPo lf b doit pos st gs Hpre).
  Qed.

  Lemma seq_rel' b inh : forall es first pos st acc gs,
    Forall lits_ok es -> pre I pos st gs ->
    rel' gs (seq_p E P lf b inh es first pos st acc) (a_seq E A lf b inh es first pos (cache (stk st)) acc).
  Proof.
    induction es as [|e es IH]; intros first pos st acc gs Hl Hpre; [apply rel'_ok, Hpre|].
    eapply gd_bind; [apply pre_skip_gd, Hpre|]. intros p1 sk st1 Hpre1.
    eapply gd_bind; [apply sub_gd; [apply (Forall_inv Hl)|exact Hpre1]|]. intros p2 t st2 Hpre2.
    apply IH; [apply (Forall_inv_tail Hl)|exact Hpre2].
  Qed.

  Lemma choice_rel' inh n : forall es i pos st gs,
    Forall lits_ok es -> pre I pos st gs ->
    rel' gs (choice_p E P inh n es i pos st) (a_choice A inh n es i pos (cache (stk st))).
  Proof.
    induction es as [|e es IH]; intros i pos st gs Hl Hpre; [apply Hpre|].
    eapply ron_gd_match; [apply Hpre|apply sub_gd; [apply (Forall_inv Hl)|exact Hpre]| |].
    - intros p t st' Hpre'. apply rel'_ok, Hpre'.
    - intros st' Hs' Hi' <-. apply IH; [apply (Forall_inv_tail Hl)|]. apply mk_pre; [apply Hpre|exact Hs'|exact Hi'].
  Qed.

  Lemma unit_rel' b inh e i pos st gs :
    lits_ok e -> pre I pos st gs ->
    rel' gs (unit_p E P lf b inh e i pos st) (a_unit E A lf b inh e i pos (cache (stk st))).
  Proof.
    intros Hl Hpre. eapply gd_bind; [apply pre_skip_gd, Hpre|]. intros p1 sk st1 Hpre1.
    eapply gd_bind; [apply sub_gd; [exact Hl|exact Hpre1]|]. intros p2 t st2 Hpre2. apply rel'_ok, Hpre2.
  Qed.

  Lemma unit_gd b inh e i pos st gs :
    lits_ok e -> pre I pos st gs ->
    gd (good_item I) gs pos (unit_p E P lf b inh e i pos st) (a_unit E A lf b inh e i pos (cache (stk st))).
  Proof.
    intros Hl Hpre. apply gd_intro; [apply unit_rel'; assumption|].
    apply (unit_post E HE P HPo lf b inh e i pos st gs Hl Hpre).
  Qed.

  Lemma rep_rel' b inh mn mx e : forall n i pos st acc gs,
    lits_ok e -> pre I pos st gs ->
    rel' gs (rep_p E P lf n b inh mn mx e i pos st acc) (a_rep E A lf n b inh mn mx e i pos (cache (stk st)) acc).
  Proof.
    induction n as [|n IH]; intros i pos st acc gs Hl Hpre; cbn [rep_p a_rep]; rewrite (proj2 (proj2 HF)); cbn [andb].
    - destruct (below i mx); [exact Logic.I|apply relp_rel', if_relp, Hpre].
    - destruct (below i mx); [|apply relp_rel', if_relp, Hpre].
      eapply ron_gd_match; [apply Hpre|apply unit_gd; assumption| |].
      + intros p t st' Hpre'. apply IH; assumption.
      + intros st' _ Hi' <-. apply relp_rel', if_relp, Hi'.
  Qed.

  Lemma arr_rel' inh e : forall n pos st acc gs,
    lits_ok e -> pre I pos st gs ->
    rel' gs (arr_p P n inh e pos st acc) (a_arr A n inh e pos (cache (stk st)) acc).
  Proof.
    induction n as [|n IH]; intros pos st acc gs Hl Hpre; [apply rel'_ok, Hpre|].
    eapply gd_bind; [apply sub_gd; assumption|]. intros p t st' Hpre'. apply IH; assumption.
  Qed.

  Lemma step_rel' inh e pos st gs :
    lits_ok e -> pre I pos st gs ->
    rel' gs (step_p E P C lf inh e pos st) (a_step E A lf inh e pos (cache (stk st))).
  Proof.
    intros Hl Hpre. pose proof (step_leaf E P C A lf HF inh e pos st gs (proj2 (proj2 Hpre))) as Hleaf.
    destruct e; try exact (relp_rel' _ _ _ Hleaf); clear Hleaf; cbn [step_p a_step].
    - (* TSeq *) apply seq_rel'; [apply lits_ok_list; exact Hl|exact Hpre].
    - (* TChoice *) apply choice_rel'; [apply lits_ok_list; exact Hl|exact Hpre].
    - (* TOpt *)
      eapply ron_gd_match; [apply Hpre|apply sub_gd; assumption| |].
      + intros p t st' Hpre'. apply rel'_ok, Hpre'.
      + intros st' _ Hi' <-. apply rel'_ok, Hi'.
    - (* TRep *) apply rep_rel'; assumption.
    - (* TAtomicRep *) apply arep_rel'; assumption.
    - (* TPos *)
      eapply (gd_match _ (cache (stk st) :: gs)); [apply (sub_gd inh e pos _ _ Hl (pre_lookahead true Hpre))| |].
      + intros p t st' Hpre'. apply relp_rel', restore_ok_relp, Hpre'.
      + intros st' _ Hi'. eapply relp_rel', restore_fail_relp, Hi'.
    - (* TNeg *)
      eapply (gd_match_check _ (cache (stk st) :: gs));
        [exact (HC _ _ _ _)|apply (sub_gd inh e pos _ _ Hl (pre_lookahead false Hpre))| |].
      + intros p t st' Hpre'. eapply relp_rel', restore_fail_relp, Hpre'.
      + intros st' _ Hi'. apply relp_rel', restore_ok_relp, Hi'.
    - (* TPush *)
      eapply gd_bind; [apply sub_gd; assumption|]. intros p t st' Hpre'. apply relp_rel', lift_relp. intros sp.
      apply (relp_ok gs _ _ (with_stk (s_push sp (stk st')) st')), sinv_push, Hpre'.
    - (* TArr *) apply arr_rel'; assumption.
    - (* TPair *)
      apply Forall_app in Hl as [Hl1 Hl2].
      eapply gd_bind; [apply sub_gd; assumption|]. intros p1 t1 st1 Hpre1.
      eapply gd_bind; [apply sub_gd; assumption|]. intros p2 t2 st2 Hpre2. apply rel'_ok, Hpre2.
    - (* TRule *)
      pose proof (proj1 (proj2 (proj2 (proj2 HE))) r) as Hr. pose proof (pre_ev (EEnter r pos) (proj1 Hpre) Hpre) as Hpre1.
      destruct (r_emis (e_rules E r)).
      + (* span-only: matched through the check path *)
        eapply (gd_match_check _ gs); [exact (HC _ _ _ _)|apply (sub_gd _ _ pos _ gs Hr Hpre1)| |].
        * intros p t st' Hpre'. apply relp_rel', (lift_ok_relp gs _ _ _ (ev _ st')), Hpre'.
        * intros st' _ Hi'. exact Hi'.
      + eapply gd_bind; [apply sub_gd; assumption|]. intros p t st' Hpre'. apply rel'_ok, Hpre'.
      + eapply (gd_match _ gs); [apply (sub_gd _ _ pos _ gs Hr Hpre1)| |].
        * intros p t st' Hpre'. apply relp_rel', (lift_ok_relp gs _ _ _ (ev _ st')), Hpre'.
        * intros st' _ Hi'. exact Hi'.
  Qed.
End RefineGood.

Lemma tparse_aparse_rel' E : fixed E -> env_ok E -> forall fuel inh e pos st gs,
  lits_ok e -> pre (e_inp E) pos st gs ->
  rel' gs (tparse E fuel inh e pos st) (aparse E fuel inh e pos (cache (stk st))).
Proof.
  intros HF HE. induction fuel as [|n IH]; intros inh e pos st gs Hl Hpre; cbn [tparse aparse]; [exact I|].
  apply (step_rel' E HF HE (tparse E n) (tcheck E n) (aparse E n)); try assumption.
  - intros inh' e' pos' st' gs' Hl' Hpre'. apply tparse_boundaries; assumption.
  - intros inh' e' pos' st' gs' Hl' Hpre'. apply tcheck_boundaries; assumption.
  - intros inh' e' pos' st' Hn. apply check_is_parse. exact Hn.
Qed.

Lemma tparse_no_panic E : env_ok E -> forall fuel inh e pos st gs,
  lits_ok e -> pre (e_inp E) pos st gs -> tparse E fuel inh e pos st <> Panic.
Proof.
  intros HE fuel inh e pos st gs Hl Hpre Hx.
  pose proof (tparse_boundaries E HE fuel inh e pos st gs Hl Hpre) as Hpo. rewrite Hx in Hpo. exact Hpo.
Qed.

(* C05 without any hypothesis about panics: valid UTF-8 input and literals, good cursor and state (C09's
   hypotheses).  Neither run panics and the real path returns what the reference interpreter returns. *)
Theorem tparse_refines_aparse_good E : fixed E -> env_ok E -> forall fuel inh e pos st gs,
  lits_ok e -> pre (e_inp E) pos st gs ->
  rel gs (tparse E fuel inh e pos st) (aparse E fuel inh e pos (cache (stk st))).
Proof.
  intros HF HE fuel inh e pos st gs Hl Hpre.
  apply rel'_rel; [apply tparse_aparse_rel'|apply (tparse_no_panic E HE fuel inh e pos st gs)]; assumption.
Qed.

Theorem aparse_panic_tparse E : fixed E -> env_ok E -> forall fuel inh e pos st gs,
  lits_ok e -> pre (e_inp E) pos st gs ->
  (aparse E fuel inh e pos (cache (stk st)) = APanic <-> tparse E fuel inh e pos st = Panic).
Proof. intros HF HE fuel inh e pos st gs Hl Hpre. apply (rel'_panic_iff gs), tparse_aparse_rel'; assumption. Qed.

(* C09 for the reference interpreter *)
Theorem aparse_no_panic E : fixed E -> env_ok E -> forall fuel inh e pos st gs,
  lits_ok e -> pre (e_inp E) pos st gs ->
  aparse E fuel inh e pos (cache (stk st)) <> APanic.
Proof.
  intros HF HE fuel inh e pos st gs Hl Hpre Hx.
  apply (tparse_no_panic E HE fuel inh e pos st gs Hl Hpre), (aparse_panic_tparse E HF HE fuel inh e pos st gs Hl Hpre), Hx.
Qed.

(* the refinement with its hypothesis moved to the real path, where C09 makes it redundant *)
Corollary tparse_refines_aparse' E : fixed E -> env_ok E -> forall fuel inh e pos st gs,
  lits_ok e -> pre (e_inp E) pos st gs ->
  tparse E fuel inh e pos st <> Panic ->
  rel gs (tparse E fuel inh e pos st) (aparse E fuel inh e pos (cache (stk st))).
Proof. intros HF HE fuel inh e pos st gs Hl Hpre _. apply tparse_refines_aparse_good; assumption. Qed.

Theorem tparse_ok_aparse_good E : fixed E -> env_ok E -> forall fuel inh e pos st gs p t st',
  lits_ok e -> pre (e_inp E) pos st gs ->
  tparse E fuel inh e pos st = Ok (p, t) st' ->
  aparse E fuel inh e pos (cache (stk st)) = AOk (p, t) (cache (stk st')) /\ SInv (stk st') gs.
Proof.
  intros HF HE fuel inh e pos st gs p t st' Hl Hpre Ht.
  exact (rel_ok _ _ _ _ _ _ (tparse_refines_aparse_good E HF HE fuel inh e pos st gs Hl Hpre) Ht).
Qed.

Theorem tparse_fail_aparse_good E : fixed E -> env_ok E -> forall fuel inh e pos st gs st',
  lits_ok e -> pre (e_inp E) pos st gs ->
  tparse E fuel inh e pos st = Fail st' ->
  aparse E fuel inh e pos (cache (stk st)) = AFail /\ SInv (stk st') gs.
Proof.
  intros HF HE fuel inh e pos st gs st' Hl Hpre Ht.
  exact (rel_fail _ _ _ _ (tparse_refines_aparse_good E HF HE fuel inh e pos st gs Hl Hpre) Ht).
Qed.

Theorem try_parse_partial_refines' E fuel r :
  fixed E -> env_ok E ->
  rel [] (try_parse_partial E fuel r) (aparse E fuel true (TRule r SkOn) (i_start (e_inp E)) []).
Proof.
  intros HF HE.
  apply (tparse_refines_aparse_good E HF HE fuel true (TRule r SkOn) (i_start (e_inp E)) st0 []);
    [apply lits_ok_rule|apply pre_start, HE].
Qed.

Theorem pred_restores' E : fixed E -> env_ok E -> forall fuel inh e pos st gs p t st',
  lits_ok e -> pre (e_inp E) pos st gs ->
  tparse E fuel inh (TPos e) pos st = Ok (p, t) st' ->
  p = pos /\ cache (stk st') = cache (stk st) /\ SInv (stk st') gs.
Proof.
  intros HF HE fuel inh e pos st gs p t st' Hl Hpre.
  apply rel_pos_restores, (tparse_refines_aparse_good E HF HE fuel inh (TPos e)); assumption.
Qed.

Corollary try_parse_partial_fuel_iff E fuel r : fixed E -> env_ok E ->
  (try_parse_partial E fuel r = Fuel <-> aparse E fuel true (TRule r SkOn) (i_start (e_inp E)) [] = AFuel).
Proof. intros HF HE. apply (rel_fuel_iff []), try_parse_partial_refines'; assumption. Qed.
