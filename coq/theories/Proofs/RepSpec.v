(* C19: counted repetition, arrays, pairs, optionals on the reference interpreter, and their
   transfer to the real parse path through the refinement theorem. *)
From Coq Require Import List NArith Arith.
From PT Require Import Model.Base Model.Stack Model.Texpr Model.Sem Model.Aparse.
From PT Require Import Proofs.StackInv Proofs.Refine.
Import ListNotations.

Section Rep.
  Variable E : env.
  Variable A : bool -> texpr -> nat -> list span -> ares (nat * tnode).
  Variable lf : nat.
  Variables (b inh : bool) (e : texpr).

  (* consecutive successful units i, i+1, ...: unit 0 is the element alone, every later unit is
     "skip (if skipping is on), then the element"; each starts where the previous one stopped *)
  Inductive units : nat -> nat -> list span -> list (list tnode * tnode) -> nat -> list span -> Prop :=
  | units_nil i pos stk : units i pos stk [] pos stk
  | units_cons i pos stk it pos1 stk1 its pos2 stk2 :
      a_unit E A lf b inh e i pos stk = AOk (pos1, it) stk1 ->
      units (S i) pos1 stk1 its pos2 stk2 ->
      units i pos stk (it :: its) pos2 stk2.

  Lemma units_app i pos stk its1 pos1 stk1 its2 pos2 stk2 :
    units i pos stk its1 pos1 stk1 ->
    units (i + length its1) pos1 stk1 its2 pos2 stk2 ->
    units i pos stk (its1 ++ its2) pos2 stk2.
  Proof.
    intros H. induction H as [i pos stk | i pos stk it p1 s1 its p2 s2 Hu Hr IH]; intros H2.
    - cbn [length] in H2. rewrite Nat.add_0_r in H2. exact H2.
    - cbn [app]. econstructor; [eassumption|]. apply IH.
      cbn [length] in H2. rewrite Nat.add_succ_r in H2. exact H2.
  Qed.

  (* why the loop stopped at index [i] in state (pos, stk) *)
  Definition stopped (mx : option nat) (i pos : nat) (stk : list span) : Prop :=
    below i mx = false \/ a_unit E A lf b inh e i pos stk = AFail.

  (* what the loop, entered at index [i] with [acc] collected, may return: the further units [its] it matched,
     why it stopped after them, and the count i + |its| against the bounds *)
  Definition rep_out (mn : nat) (mx : option nat) (i pos : nat) (stk : list span)
             (acc : list (list tnode * tnode)) (r : ares (nat * tnode)) : Prop :=
    match r with
    | AOk (pos', t) stk' =>
        exists its, t = NRep (bounded mx) (rev acc ++ its) /\
                    units i pos stk its pos' stk' /\
                    mn <= i + length its /\
                    (forall m, mx = Some m -> i + length its <= m) /\
                    stopped mx (i + length its) pos' stk'
    | AFail =>
        exists its pos' stk', units i pos stk its pos' stk' /\
                    i + length its < mn /\
                    stopped mx (i + length its) pos' stk'
    | _ => True
    end.

  (* every exit of the loop returns the same value *)
  Lemma rep_out_stop mn mx i pos stk acc :
    stopped mx i pos stk -> (forall m, mx = Some m -> i <= m) ->
    rep_out mn mx i pos stk acc (if i <? mn then AFail else AOk (pos, NRep (bounded mx) (rev acc)) stk).
  Proof.
    intros Hst Hi. destruct (Nat.ltb_spec i mn) as [Hlt|Hge]; cbn [rep_out].
    - exists [], pos, stk. cbn [length]. rewrite Nat.add_0_r. repeat split; [constructor|assumption..].
    - exists []. cbn [length]. rewrite Nat.add_0_r, app_nil_r. repeat split; [constructor|assumption..].
  Qed.

  Lemma rep_out_cons mn mx i pos stk acc it p1 s1 r :
    a_unit E A lf b inh e i pos stk = AOk (p1, it) s1 ->
    rep_out mn mx (S i) p1 s1 (it :: acc) r -> rep_out mn mx i pos stk acc r.
  Proof.
    intros Hu. destruct r as [[p' t] s'| | |]; cbn [rep_out]; [| |exact id..].
    - intros (its & -> & Hun & H). exists (it :: its). cbn [length rev]. rewrite <- app_assoc, Nat.add_succ_r.
      split; [reflexivity|]. split; [econstructor; eassumption|exact H].
    - intros (its & p' & s' & Hun & H). exists (it :: its), p', s'. cbn [length]. rewrite Nat.add_succ_r.
      split; [econstructor; eassumption|exact H].
  Qed.

  Lemma a_rep_spec mn mx : forall n i pos stk acc, (forall m, mx = Some m -> i <= m) ->
    rep_out mn mx i pos stk acc (a_rep E A lf n b inh mn mx e i pos stk acc).
  Proof.
    induction n as [|n IH]; intros i pos stk acc Hi; cbn [a_rep].
    all: destruct (below i mx) eqn:Hb; [|apply rep_out_stop; [left; exact Hb|exact Hi]].
    - exact I.
    - destruct (a_unit E A lf b inh e i pos stk) as [[p1 it] s1| | |] eqn:Hu; [| |exact I..].
      + apply (rep_out_cons _ _ _ _ _ _ _ _ _ _ Hu), IH.
        intros m ->. apply Nat.ltb_lt in Hb. exact Hb.
      + apply rep_out_stop; [right; exact Hu|exact Hi].
  Qed.

  (* [T; n]: exactly n consecutive matches of the element, nothing skipped in between *)
  Inductive chain : nat -> nat -> list span -> list tnode -> nat -> list span -> Prop :=
  | chain_nil pos stk : chain 0 pos stk [] pos stk
  | chain_cons n pos stk t pos1 stk1 ts pos2 stk2 :
      A inh e pos stk = AOk (pos1, t) stk1 ->
      chain n pos1 stk1 ts pos2 stk2 ->
      chain (S n) pos stk (t :: ts) pos2 stk2.

  Lemma a_arr_spec : forall n pos stk acc,
    match a_arr A n inh e pos stk acc with
    | AOk (pos', t) stk' => exists ts, t = NArr (rev acc ++ ts) /\ length ts = n /\ chain n pos stk ts pos' stk'
    | AFail => exists k ts pos' stk', k < n /\ chain k pos stk ts pos' stk' /\ A inh e pos' stk' = AFail
    | _ => True
    end.
  Proof.
    induction n as [|n IH]; intros pos stk acc; cbn [a_arr].
    - exists []. rewrite app_nil_r. repeat split. constructor.
    - destruct (A inh e pos stk) as [[p1 t] s1| | |] eqn:Ha; try exact I.
      + specialize (IH p1 s1 (t :: acc)).
        destruct (a_arr A n inh e p1 s1 (t :: acc)) as [[p' t'] s'| | |]; try exact I.
        * destruct IH as (ts & -> & <- & Hc). exists (t :: ts). cbn [rev]. rewrite <- app_assoc.
          repeat split. econstructor; eassumption.
        * destruct IH as (k & ts & p' & s' & Hk & Hc & Hf).
          exists (S k), (t :: ts), p', s'. repeat split; [apply -> Nat.succ_lt_mono; exact Hk| |assumption]. econstructor; eassumption.
      + exists 0, [], pos, stk. repeat split; [apply Nat.lt_0_succ|constructor|assumption].
  Qed.
End Rep.

Theorem aparse_rep_bounds E fuel inh k mn mx e pos stk :
  let b := resolve k inh in
  match aparse E (S fuel) inh (TRep k mn mx e) pos stk with
  | AOk (pos', t) stk' =>
      exists its, t = NRep (bounded mx) its /\
                  units E (aparse E fuel) fuel b inh e 0 pos stk its pos' stk' /\
                  mn <= length its /\
                  (forall m, mx = Some m -> length its <= m) /\
                  stopped E (aparse E fuel) fuel b inh e mx (length its) pos' stk'
  | AFail =>
      exists its pos' stk', units E (aparse E fuel) fuel b inh e 0 pos stk its pos' stk' /\
                  length its < mn /\
                  stopped E (aparse E fuel) fuel b inh e mx (length its) pos' stk'
  | _ => True
  end.
Proof.
  intros b. cbn [aparse a_step]. fold b.
  exact (a_rep_spec E (aparse E fuel) fuel b inh e mn mx fuel 0 pos stk [] (fun m _ => Nat.le_0_l m)).
Qed.

Theorem aparse_arr E fuel inh n e pos stk :
  match aparse E (S fuel) inh (TArr n e) pos stk with
  | AOk (pos', t) stk' => exists ts, t = NArr ts /\ length ts = n /\ chain (aparse E fuel) inh e n pos stk ts pos' stk'
  | AFail => exists k ts pos' stk', k < n /\ chain (aparse E fuel) inh e k pos stk ts pos' stk' /\
                                    aparse E fuel inh e pos' stk' = AFail
  | _ => True
  end.
Proof.
  cbn [aparse a_step]. exact (a_arr_spec (aparse E fuel) inh e n pos stk []).
Qed.

Theorem aparse_pair E fuel inh a b pos stk :
  aparse E (S fuel) inh (TPair a b) pos stk =
  match aparse E fuel inh a pos stk with
  | AOk (p1, t1) s1 =>
      match aparse E fuel inh b p1 s1 with
      | AOk (p2, t2) s2 => AOk (p2, NPair t1 t2) s2
      | AFail => AFail | APanic => APanic | AFuel => AFuel
      end
  | AFail => AFail | APanic => APanic | AFuel => AFuel
  end.
Proof. reflexivity. Qed.

Theorem aparse_opt E fuel inh e pos stk :
  aparse E (S fuel) inh (TOpt e) pos stk =
  match aparse E fuel inh e pos stk with
  | AOk (p, t) s => AOk (p, NOpt (Some t)) s
  | AFail => AOk (pos, NOpt None) stk
  | APanic => APanic | AFuel => AFuel
  end.
Proof. reflexivity. Qed.

Theorem tparse_rep_bounds E : fixed E -> forall fuel inh k mn mx e pos st gs p t st',
  SInv (stk st) gs ->
  aparse E (S fuel) inh (TRep k mn mx e) pos (cache (stk st)) <> APanic ->
  tparse E (S fuel) inh (TRep k mn mx e) pos st = Ok (p, t) st' ->
  exists its, t = NRep (bounded mx) its /\ mn <= length its /\ (forall m, mx = Some m -> length its <= m) /\
    units E (aparse E fuel) fuel (resolve k inh) inh e 0 pos (cache (stk st)) its p (cache (stk st')) /\
    stopped E (aparse E fuel) fuel (resolve k inh) inh e mx (length its) p (cache (stk st')).
Proof.
  intros HF fuel inh k mn mx e pos st gs p t st' Hi Hn Ht.
  destruct (tparse_ok_aparse E HF _ _ _ _ _ _ _ _ _ Hi Hn Ht) as [Ha _].
  pose proof (aparse_rep_bounds E fuel inh k mn mx e pos (cache (stk st))) as Hs. cbv zeta in Hs. rewrite Ha in Hs.
  destruct Hs as (its & -> & Hu & Hmn & Hmx & Hst). exists its. repeat split; assumption.
Qed.

(* a repetition of the real parse path fails only if fewer than MIN units match *)
Theorem tparse_rep_fails E : fixed E -> forall fuel inh k mn mx e pos st gs st',
  SInv (stk st) gs ->
  aparse E (S fuel) inh (TRep k mn mx e) pos (cache (stk st)) <> APanic ->
  tparse E (S fuel) inh (TRep k mn mx e) pos st = Fail st' ->
  exists its p' s', units E (aparse E fuel) fuel (resolve k inh) inh e 0 pos (cache (stk st)) its p' s' /\
    length its < mn /\ stopped E (aparse E fuel) fuel (resolve k inh) inh e mx (length its) p' s'.
Proof.
  intros HF fuel inh k mn mx e pos st gs st' Hi Hn Ht.
  destruct (tparse_fail_aparse E HF _ _ _ _ _ _ _ Hi Hn Ht) as [Ha _].
  pose proof (aparse_rep_bounds E fuel inh k mn mx e pos (cache (stk st))) as Hs. cbv zeta in Hs. rewrite Ha in Hs.
  exact Hs.
Qed.

(* the finding repaired by "fix: RepeatMinMax enforces MIN when the loop ends by reaching MAX" *)
Definition w19_env (rep_min_after : bool) : env :=
  mk_env (inp_of_str []) (fun _ => mk_rdef None EmBoth TFail) SkipEmpty (fun _ _ => false) 0%N
         true true rep_min_after.

Lemma unrepaired_ignores_min :
  match tparse (w19_env false) 10 true (TRep SkOff 1 (Some 0) (TStr [120%N])) 0 st0 with
  | Ok (_, NRep _ its) _ => length its = 0
  | _ => False
  end.
Proof. vm_compute. reflexivity. Qed.

Example repaired_enforces_min :
  match tparse (w19_env true) 10 true (TRep SkOff 1 (Some 0) (TStr [120%N])) 0 st0 with
  | Fail _ => True
  | _ => False
  end.
Proof. vm_compute. exact I. Qed.
