(* C10 ("rendering the error never panics"), head line of `collect_to_message` (Model/ReportHead.v):
   for every valid string and every character boundary the checked slice `&line_string[..idx]` is in
   range and on a boundary, and the text before "^---" is exactly the part of the line before the
   position. *)
From Coq Require Import List NArith Arith Lia.
From PT Require Import Model.Base Model.Sem Model.Tracker Model.Lines Model.LinesSpec Model.ReportHead.
From PT Require Import Proofs.BaseFacts Proofs.BoundaryOps Proofs.Boundary.
From PT Require Import Proofs.ListFacts Proofs.LinesUtf8 Proofs.LinesProofs.
Import ListNotations.
Local Open Scope N_scope.

Lemma boff_cons c r n : boff (c :: r) (S n) = (len_utf8 c + boff r n)%nat.
Proof. unfold boff. cbn [firstn]. apply encode_length_cons. Qed.

Lemma boff_0 cs : boff cs 0 = 0%nat.
Proof. reflexivity. Qed.

Lemma boff_all cs n : (length cs <= n)%nat -> boff cs n = length (encode cs).
Proof. intros H. unfold boff. rewrite firstn_all2 by exact H. reflexivity. Qed.

Lemma boff_app_length a b : boff (a ++ b) (length a) = length (encode a).
Proof. unfold boff. rewrite firstn_length_app. reflexivity. Qed.

Lemma nth_cidx cs : forall i n,
  nth_error (cidx cs i) n =
  match nth_error cs n with
  | Some c => Some ((i + boff cs n)%nat, c)
  | None => None
  end.
Proof.
  induction cs as [|c r IH]; intros i n.
  - destruct n; reflexivity.
  - destruct n as [|n].
    + cbn [cidx nth_error]. rewrite boff_0, Nat.add_0_r. reflexivity.
    + cbn [cidx nth_error]. rewrite IH, boff_cons.
      destruct (nth_error r n) as [x|]; [|reflexivity].
      f_equal. f_equal. lia.
Qed.

Lemma char_indices_nth cs n : valid_str cs ->
  nth_error (char_indices (encode cs)) n =
  match nth_error cs n with
  | Some c => Some (boff cs n, c)
  | None => None
  end.
Proof. intros Hv. rewrite (char_indices_encode cs Hv), nth_cidx. reflexivity. Qed.

(* `char_indices().nth(n).unwrap_or((len, _)).0` = byte offset of the first n characters, for every n
   (saturating at the length): the index is in bytes although n counts characters *)
Lemma nth_char_index_encode cs n : valid_str cs -> nth_char_index (encode cs) n = boff cs n.
Proof.
  intros Hv. unfold nth_char_index. rewrite (char_indices_nth cs n Hv).
  destruct (nth_error cs n) as [c|] eqn:E; [reflexivity|].
  apply nth_error_None in E. symmetry. apply boff_all. exact E.
Qed.

(* the `unwrap_or` branch is taken exactly when the line has no more than n characters *)
Lemma nth_char_index_none cs n : valid_str cs ->
  (nth_error (char_indices (encode cs)) n = None <-> (length cs <= n)%nat).
Proof.
  intros Hv. rewrite (char_indices_nth cs n Hv). split.
  - intros H. apply nth_error_None. destruct (nth_error cs n); [discriminate|reflexivity].
  - intros H. apply nth_error_None in H. rewrite H. reflexivity.
Qed.

Lemma slice_head a t : valid_str (a ++ t) ->
  slice_checked (encode (a ++ t)) 0 (length (encode a)) = MOk (encode a).
Proof.
  intros Hv.
  pose proof (slice_middle [] a t Hv) as H.
  change (length (encode [])) with 0%nat in H. cbn [app Nat.add] in H. exact H.
Qed.

Lemma valid_after_last_lf cs : valid_str cs -> valid_str (after_last_lf cs).
Proof.
  intros Hv. rewrite <- (upto_after_last_lf cs) in Hv. apply valid_app in Hv. tauto.
Qed.

Lemma valid_upto_lf cs : valid_str cs -> valid_str (upto_lf cs).
Proof.
  intros Hv. rewrite <- (upto_after_lf cs) in Hv. apply valid_app in Hv. tauto.
Qed.

Theorem head_line_correct : forall cs k, valid_str cs ->
  head_line (encode cs) (boff cs k) = MOk (encode (after_last_lf (firstn k cs))).
Proof.
  intros cs k Hv. unfold head_line, line_col.
  rewrite (line_col_correct cs k false Hv), (line_of_correct cs k Hv).
  unfold line_col_spec, line_of_spec.
  set (A := after_last_lf (firstn k cs)). set (T := upto_lf (skipn k cs)).
  assert (HvAT : valid_str (A ++ T)).
  { apply valid_app. split.
    - apply valid_after_last_lf, Forall_firstn. exact Hv.
    - apply valid_upto_lf, Forall_skipn. exact Hv. }
  replace (1 + length A - 1)%nat with (length A) by lia.
  rewrite (nth_char_index_encode (A ++ T) (length A) HvAT), boff_app_length.
  apply slice_head. exact HvAT.
Qed.

Theorem head_line_length : forall cs k, valid_str cs ->
  length (encode (after_last_lf (firstn k cs))) =
  (boff cs k - find_line_start (encode cs) (boff cs k))%nat /\
  (find_line_start (encode cs) (boff cs k) <= boff cs k)%nat.
Proof.
  intros cs k Hv. unfold boff.
  pose proof (find_line_start_spec (firstn k cs) (skipn k cs)) as Hs.
  rewrite firstn_skipn in Hs. rewrite (Hs Hv).
  pose proof (f_equal (fun l => length (encode l)) (upto_after_last_lf (firstn k cs))) as Hl.
  cbv beta in Hl. rewrite encode_length_app in Hl. lia.
Qed.

Theorem head_line_ok : forall cs k p, valid_str cs -> (k <= length cs)%nat -> p = boff cs k ->
  exists h, head_line (encode cs) p = MOk h /\
            h = encode (after_last_lf (firstn k cs)) /\
            length h = (p - find_line_start (encode cs) p)%nat /\
            (find_line_start (encode cs) p <= p)%nat.
Proof.
  intros cs k p Hv _ ->. exists (encode (after_last_lf (firstn k cs))).
  destruct (head_line_length cs k Hv) as [Hl Hle].
  split; [apply head_line_correct; exact Hv|]. split; [reflexivity|]. split; assumption.
Qed.

(* every position `Position::new` accepts (C12_boundaries) renders without panic *)
Theorem head_line_no_panic : forall cs p, valid_str cs -> pos_new (encode cs) p = Some p ->
  exists h, head_line (encode cs) p = MOk h.
Proof.
  intros cs p Hv Hp. apply (proj1 (pos_new_boundaries cs p Hv)) in Hp.
  destruct Hp as (k & _ & ->). eexists. apply head_line_correct. exact Hv.
Qed.

Lemma good_cur_pos_new I c : good_inp I -> good_cur I c -> pos_new (parent I) c = Some c.
Proof.
  intros (_ & _ & _ & _ & Hb) (Hc & _ & Hr). unfold pos_new, slice_opt.
  rewrite (proj2 (Nat.leb_le _ _) (Nat.le_trans _ _ _ Hr Hb)), Nat.leb_refl, Hc, is_boundary_length. reflexivity.
Qed.

Theorem entry_report_head_renders : forall E fuel r cs, env_ok E -> valid_str cs -> parent (e_inp E) = encode cs ->
  forall st,
    (final_state (try_parse_partial E fuel r) = Some st \/ final_state (try_check_partial E fuel r) = Some st \/
     final_state (try_parse E fuel r) = Some st \/ final_state (try_check E fuel r) = Some st) ->
    exists h, head_line (encode cs) (t_position (run_tracker (i_start (e_inp E)) (tr st))) = MOk h.
Proof.
  intros E fuel r cs HE Hv Hp st Hst.
  apply head_line_no_panic; [exact Hv|]. rewrite <- Hp.
  apply good_cur_pos_new; [apply HE|exact (entry_error_location E fuel r HE st Hst)].
Qed.

Lemma head_line_prefix a b : valid_str (a ++ b) ->
  head_line (encode (a ++ b)) (length (encode a)) = MOk (encode (after_last_lf a)).
Proof.
  intros Hv. rewrite <- (boff_app_length a b), (head_line_correct _ _ Hv), firstn_length_app. reflexivity.
Qed.

(* p at end of input: the whole last line (everything after the last LF); when the input does not end
   with LF this is the `unwrap_or(len)` branch (next lemma) *)
Lemma head_line_at_end cs : valid_str cs ->
  head_line (encode cs) (length (encode cs)) = MOk (encode (after_last_lf cs)).
Proof. intros Hv. pose proof (head_line_prefix cs []) as H. rewrite app_nil_r in H. exact (H Hv). Qed.

(* at end of input `nth(col - 1)` is None: line_of = the last line = after_last_lf cs (no LF follows),
   it has col - 1 characters, so nth runs off its end and the index is the length of the line *)
Lemma head_line_end_unwrap_or cs : valid_str cs ->
  line_of (encode cs) (length (encode cs)) = LOk (encode (after_last_lf cs)) /\
  line_col (encode cs) (length (encode cs)) = LOk (1 + count_lf cs, 1 + length (after_last_lf cs))%nat /\
  nth_error (char_indices (encode (after_last_lf cs))) (length (after_last_lf cs)) = None /\
  nth_char_index (encode (after_last_lf cs)) (length (after_last_lf cs)) =
  length (encode (after_last_lf cs)).
Proof.
  intros Hv. pose proof (valid_after_last_lf cs Hv) as HvA.
  rewrite <- (boff_all cs (length cs)) by lia.
  rewrite (line_of_correct cs (length cs) Hv). unfold line_col.
  rewrite (line_col_correct cs (length cs) false Hv).
  unfold line_of_spec, line_col_spec. rewrite firstn_all, skipn_all. cbn [upto_lf]. rewrite app_nil_r.
  split; [reflexivity|]. split; [reflexivity|]. split.
  - apply (nth_char_index_none _ _ HvA). lia.
  - rewrite (nth_char_index_encode _ _ HvA). apply boff_all. lia.
Qed.

Lemma head_line_after_lf a b : valid_str (a ++ LF :: b) ->
  head_line (encode (a ++ LF :: b)) (length (encode (a ++ [LF]))) = MOk [].
Proof.
  intros Hv. change (a ++ LF :: b) with (a ++ [LF] ++ b) in *. rewrite app_assoc in *.
  rewrite (head_line_prefix _ _ Hv), after_last_lf_snoc. reflexivity.
Qed.

Lemma after_last_lf_line a l : Forall (fun c => is_lf c = false) l -> after_last_lf (a ++ LF :: l) = l.
Proof.
  intros Hl. change (a ++ LF :: l) with (a ++ [LF] ++ l). rewrite app_assoc.
  induction l as [|x r IH] using rev_ind.
  - rewrite app_nil_r. apply after_last_lf_snoc.
  - apply Forall_app in Hl as [Hr Hx]. apply Forall_inv in Hx.
    rewrite app_assoc, after_last_lf_snoc, Hx, (IH Hr). reflexivity.
Qed.

(* a line of arbitrary (multi-byte) characters without LF: the head is all their bytes, i.e. the slice
   index is the byte length `length (encode l)`, not the character count `length l` *)
Lemma head_line_multibyte a l b : valid_str (a ++ LF :: l ++ b) ->
  Forall (fun c => is_lf c = false) l ->
  head_line (encode (a ++ LF :: l ++ b)) (length (encode (a ++ LF :: l))) = MOk (encode l).
Proof.
  intros Hv Hl. change (a ++ LF :: l ++ b) with (a ++ (LF :: l) ++ b) in *. rewrite app_assoc in *.
  rewrite (head_line_prefix _ _ Hv), (after_last_lf_line a l Hl). reflexivity.
Qed.

(* CRLF: the CR is a character of the line.  Between CR and LF the head ends with the CR byte ... *)
Lemma head_line_before_crlf_lf a b : valid_str (a ++ CR :: LF :: b) ->
  head_line (encode (a ++ CR :: LF :: b)) (length (encode (a ++ [CR]))) =
  MOk (encode (after_last_lf a) ++ [13]).
Proof.
  intros Hv. change (a ++ CR :: LF :: b) with (a ++ [CR] ++ LF :: b) in *. rewrite app_assoc in *.
  rewrite (head_line_prefix _ _ Hv), after_last_lf_snoc. change (is_lf CR) with false. cbn iota.
  rewrite encode_app. reflexivity.
Qed.

(* ... and right after CR LF the head is empty (CR is gone with the rest of its line) *)
Lemma head_line_after_crlf a b : valid_str (a ++ CR :: LF :: b) ->
  head_line (encode (a ++ CR :: LF :: b)) (length (encode (a ++ [CR; LF]))) = MOk [].
Proof.
  intros Hv. change (a ++ CR :: LF :: b) with (a ++ [CR] ++ LF :: b) in *. change (a ++ [CR; LF]) with (a ++ [CR] ++ [LF]).
  rewrite !app_assoc in *. apply head_line_after_lf. exact Hv.
Qed.

(* "名=" at p = 4 (end of input, no trailing LF): col = 3, nth(2) = None, index = len = 4 *)
Example ex_name_eq : encode [21517; 61] = [229; 144; 141; 61] /\
  head_line [229; 144; 141; 61] 4 = MOk [229; 144; 141; 61] /\
  nth_error (char_indices [229; 144; 141; 61]) 2 = None.
Proof. vm_compute. repeat split. Qed.

(* ... on which the seeded refactor (character count used as a byte index: `[..2]` is inside 名) panics *)
Example ex_name_eq_charidx_panics : head_line_charidx [229; 144; 141; 61] 4 = MPanic.
Proof. vm_compute. reflexivity. Qed.

(* "a=1\n名前xy=" at end (p = 13): the 9 bytes of "名前xy=" *)
Example ex_second_line :
  let s := encode [97; 61; 49; 10; 21517; 21069; 120; 121; 61] in
  length s = 13%nat /\
  head_line s 13 = MOk [229; 144; 141; 229; 137; 141; 120; 121; 61] /\
  head_line s 13 = MOk (encode [21517; 21069; 120; 121; 61]) /\
  line_col s 13 = LOk (2, 6)%nat.
Proof. vm_compute. repeat split. Qed.

(* "größe=" at end: 6 characters, 8 bytes; col = 7, index = 8 (the seeded refactor slices `[..6]`, which
   happens to be a boundary here: no panic but the wrong text "größ") *)
Example ex_groesse :
  let s := encode [103; 114; 246; 223; 101; 61] in
  length s = 8%nat /\
  line_col s 8 = LOk (1, 7)%nat /\
  head_line s 8 = MOk s /\
  head_line_charidx s 8 = MOk (encode [103; 114; 246; 223]).
Proof. vm_compute. repeat split. Qed.

(* inside a line of multi-byte characters: "名前xy=" at p = 6 (after 前): nth(2) = Some (6, 'x') *)
Example ex_inside :
  let s := encode [21517; 21069; 120; 121; 61] in
  head_line s 6 = MOk (encode [21517; 21069]) /\
  nth_error (char_indices s) 2 = Some (6%nat, 120).
Proof. vm_compute. repeat split. Qed.

(* right after an LF / at end after a trailing LF: empty head; "a\r\nb": between CR and LF the head is "a\r" *)
Example ex_lf_crlf :
  head_line (encode [97; 10; 98]) 2 = MOk [] /\
  head_line (encode [97; 10]) 2 = MOk [] /\
  head_line (encode [97; 13; 10; 98]) 2 = MOk [97; 13] /\
  head_line (encode [97; 13; 10; 98]) 3 = MOk [] /\
  head_line (encode [97; 13; 10; 98]) 4 = MOk [98] /\
  head_line [] 0 = MOk [].
Proof. vm_compute. repeat split. Qed.

(* outside the theorem's domain the model does report the panics of the real code: an offset inside a
   character (`&self.input[..pos]` in line_col) and an offset past the end *)
Example ex_not_a_position :
  head_line [229; 144; 141; 61] 1 = MPanic /\ head_line [229; 144; 141; 61] 5 = MPanic.
Proof. vm_compute. repeat split. Qed.

Print Assumptions head_line_correct.
Print Assumptions head_line_length.
Print Assumptions head_line_ok.
Print Assumptions head_line_no_panic.
Print Assumptions entry_report_head_renders.
Print Assumptions nth_char_index_encode.
Print Assumptions head_line_end_unwrap_or.
Print Assumptions head_line_multibyte.
Print Assumptions head_line_before_crlf_lf.
