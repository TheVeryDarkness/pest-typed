(* C10: the rendered report says what the tracker holds -- a rule is called "expected" by some line exactly when it is
   among the positives of the corresponding entry, "unexpected" exactly when among its negatives; hence the truthfulness
   theorems about the tracker's lists (TraceSound.v) are theorems about the report's text. *)
From Coq Require Import List NArith Sorted.
From PT Require Import Model.Base Model.Texpr Model.Sem Model.Tracker Model.Report.
From PT Require Import Proofs.TraceSound.
Import ListNotations.

Lemma in_cons_eq {A} (x y : A) l : In y (x :: l) <-> y = x \/ In y l.
Proof. cbn [In]. split; intros [H|H]; auto. Qed.

Lemma in_skip {A} (x y z : A) l l' : (In y l' <-> y = x \/ In y l) -> (In y (z :: l') <-> y = x \/ In y (z :: l)).
Proof. intros H. cbn [In]. rewrite H. split; intros [H1|[H1|H1]]; auto. Qed.

Lemma fold_insert_In {A} (ins : A -> list A -> list A) :
  (forall x y l, In y (ins x l) <-> y = x \/ In y l) ->
  forall y l, In y (fold_right ins [] l) <-> In y l.
Proof.
  intros Hins y l. induction l as [|x r IH]; cbn [fold_right]; [reflexivity|].
  rewrite Hins, IH, in_cons_eq. reflexivity.
Qed.

Lemma insert_sorted_In x y l : In y (insert_sorted x l) <-> y = x \/ In y l.
Proof.
  induction l as [|z r IH]; cbn [insert_sorted]; [apply in_cons_eq|].
  destruct (x <? z)%N; [apply in_cons_eq|]. destruct (N.eqb_spec x z) as [->|_].
  - split; [right; assumption | intros [->|H]; [left; reflexivity | exact H]].
  - apply in_skip, IH.
Qed.

Lemma sort_dedup_In y l : In y (sort_dedup l) <-> In y l.
Proof. apply fold_insert_In, insert_sorted_In. Qed.

Lemma insert_entry_In e f l : In f (insert_entry e l) <-> f = e \/ In f l.
Proof.
  induction l as [|g r IH]; cbn [insert_entry]; [apply in_cons_eq|].
  destruct (key_ltb (te_key e) (te_key g)); [apply in_cons_eq | apply in_skip, IH].
Qed.

Lemma sorted_entries_In f l : In f (sorted_entries l) <-> In f l.
Proof. apply fold_insert_In, insert_entry_In. Qed.

Lemma says_entry e :
  says_expected (line_of_entry e) = sort_dedup (te_pos e) /\ says_unexpected (line_of_entry e) = sort_dedup (te_neg e).
Proof.
  unfold says_expected, says_unexpected, line_of_entry. cbn [l_msg].
  destruct (sort_dedup (te_pos e)), (sort_dedup (te_neg e)); split; reflexivity.
Qed.

Theorem report_says t l : In l (report t) ->
  exists en, In en (t_attempts t) /\ l_by l = te_key en /\ l_special l = te_spec en /\
             (forall r, In r (says_expected l) <-> In r (te_pos en)) /\
             (forall r, In r (says_unexpected l) <-> In r (te_neg en)).
Proof.
  unfold report. intros H. apply in_map_iff in H. destruct H as [en [<- Hin]].
  apply (proj1 (sorted_entries_In en (t_attempts t))) in Hin. exists en. split; [exact Hin|]. split; [reflexivity|]. split; [reflexivity|].
  destruct (says_entry en) as [-> ->]. split; intros r; apply sort_dedup_In.
Qed.

Theorem report_complete t en : In en (t_attempts t) -> In (line_of_entry en) (report t).
Proof. intros H. unfold report. apply in_map. apply (proj2 (sorted_entries_In en (t_attempts t))). exact H. Qed.

Lemma insert_sorted_sorted x l : StronglySorted N.lt l -> StronglySorted N.lt (insert_sorted x l).
Proof.
  induction l as [|y r IH]; intros Hs; cbn [insert_sorted]; [repeat constructor|].
  destruct (N.ltb_spec x y) as [H1|H1]; [|destruct (N.eqb_spec x y) as [_|H2]; [exact Hs|]].
  - constructor; [exact Hs|]. apply StronglySorted_inv in Hs as [_ Hall]. constructor; [exact H1|].
    exact (Forall_impl _ (fun z => N.lt_trans x y z H1) Hall).
  - apply StronglySorted_inv in Hs as [Hr Hall]. constructor; [exact (IH Hr)|].
    apply Forall_forall. intros z Hz. apply insert_sorted_In in Hz as [->|Hz]; [exact (proj2 (N.le_neq y x) (conj H1 (not_eq_sym H2)))|].
    rewrite Forall_forall in Hall. exact (Hall z Hz).
Qed.

Lemma sort_dedup_sorted l : StronglySorted N.lt (sort_dedup l).
Proof. induction l as [|x r IH]; [constructor | exact (insert_sorted_sorted x _ IH)]. Qed.

(* strictly ascending: no rule is listed twice in a line *)
Theorem report_lists_sorted e :
  StronglySorted N.lt (says_expected (line_of_entry e)) /\ StronglySorted N.lt (says_unexpected (line_of_entry e)).
Proof. destruct (says_entry e) as [-> ->]. split; apply sort_dedup_sorted. Qed.

Theorem rendered_report_truthful E fuel r st' :
  try_parse E fuel r = Fail st' ->
  let T := run_tracker (i_start (e_inp E)) (tr st') in
  forall l, In l (report T) ->
    (forall r', In r' (says_expected l) ->
       (r' = e_eoi E /\ i_at_end (e_inp E) (t_position T) = false) \/
       (exists fuel' inh' st1,
          verdict (tcheck E fuel' inh' (r_body (e_rules E r')) (t_position T) (ev (EEnter r' (t_position T)) st1)) = Some false)) /\
    (forall r', In r' (says_unexpected l) ->
       exists fuel' inh' st1,
          verdict (tcheck E fuel' inh' (r_body (e_rules E r')) (t_position T) (ev (EEnter r' (t_position T)) st1)) = Some true).
Proof.
  intros Hf T l Hl. destruct (report_says T l Hl) as (en & Hen & _ & _ & Hp & Hn).
  split.
  - intros r' Hr. apply Hp in Hr. exact (proj1 (report_truthful E fuel r st' Hf en Hen) r' Hr).
  - intros r' Hr. apply Hn in Hr. exact (report_unexpected_matches E fuel r st' Hf en Hen r' Hr).
Qed.
