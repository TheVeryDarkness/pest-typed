(* Facts about the value a successful run returns, whatever state it leaves: [okp G r].  Every combinator
   of Model/Sem.v continues a run by a [match] on its result, a [lift], [ron] or [notrack]; the lemmas here
   carry [okp] through each, so that an invariant of the returned values is proved by following the code. *)
From PT Require Import Model.Base Model.Sem.

Definition okp {A} (G : A -> Prop) (r : res A) : Prop :=
  match r with Ok a _ => G a | _ => True end.

Lemma okp_true {A} (r : res A) : okp (fun _ => True) r.
Proof. destruct r; exact I. Qed.

Lemma okp_bind {A B} (G : A -> Prop) (G' : B -> Prop) (r : res A) (k : A -> state -> res B) kf :
  okp G r -> (forall a s, G a -> okp G' (k a s)) -> (forall s, okp G' (kf s)) ->
  okp G' (match r with Ok a s => k a s | Fail s => kf s | Panic => Panic | Fuel => Fuel end).
Proof. destruct r; cbn [okp]; auto. Qed.

Lemma okp_lift {A B} (G : B -> Prop) (m : mres A) (k : A -> res B) :
  (forall a, m = MOk a -> okp G (k a)) -> okp G (lift m k).
Proof. intros H. destruct m as [a|]; [exact (H a eq_refl)|exact I]. Qed.

Lemma ron_okp {A} E (G : A -> Prop) (f : state -> res A) st :
  (forall s, okp G (f s)) -> okp G (ron E f st).
Proof.
  intros H. unfold ron. destruct (e_ron_fixed E).
  - eapply okp_bind; [apply H|intros a s Ha; exact Ha|intros s; exact I].
  - eapply okp_bind; [apply H| |]; intros; apply okp_lift; intros; [assumption|exact I].
Qed.

Lemma notrack_okp {A} (G : A -> Prop) (f : state -> res A) st :
  okp G (f st) -> okp G (notrack f st).
Proof. unfold notrack. destruct (f st); exact (fun H => H). Qed.
