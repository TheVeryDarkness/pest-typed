(* C03, last clause: "on failure produce the identical error report".  The check entry points leave exactly the state the parse
   entry points leave (CheckParse.v), hence the same tracker and the same rendered report (Model/Report.v). *)
From PT Require Import Model.Base Model.Sem Model.Tracker Model.Report Proofs.CheckParse.

Theorem full_same_report E fuel r st :
  try_parse E fuel r = Fail st ->
  try_check E fuel r = Fail st /\
  forall st', try_check E fuel r = Fail st' ->
    run_tracker (i_start (e_inp E)) (tr st') = run_tracker (i_start (e_inp E)) (tr st) /\
    report (run_tracker (i_start (e_inp E)) (tr st')) = report (run_tracker (i_start (e_inp E)) (tr st)).
Proof.
  intros Hp.
  assert (Hc : try_check E fuel r = Fail st).
  { rewrite (try_check_is_parse E fuel r) by (rewrite Hp; discriminate). rewrite Hp. reflexivity. }
  split; [exact Hc|]. intros st' Hc'. rewrite Hc in Hc'. injection Hc' as <-. split; reflexivity.
Qed.

Theorem partial_same_report E fuel r st :
  try_parse_partial E fuel r = Fail st ->
  try_check_partial E fuel r = Fail st.
Proof.
  intros Hp. rewrite (try_check_partial_is_parse E fuel r) by (rewrite Hp; discriminate). rewrite Hp. reflexivity.
Qed.

Theorem full_check_fail_parse_fail E fuel r st :
  try_parse E fuel r <> Panic -> try_check E fuel r = Fail st -> try_parse E fuel r = Fail st.
Proof.
  intros Hn Hc. rewrite (try_check_is_parse E fuel r Hn) in Hc.
  destruct (try_parse E fuel r) as [t st1|st1| |]; try discriminate Hc. injection Hc as <-. reflexivity.
Qed.
