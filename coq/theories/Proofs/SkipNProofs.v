(* Explicit skip counts (property C19): proofs about Model/SkipN.v.
   Parse and check agree for every SKIP count; cursor monotone; repetition bounds; the chain-of-units
   characterisation (greedy, skips of a failing unit given back, fails exactly below MIN); sequences; examples.

   Every loop of the model continues a run by `match r with SOk a => .. | SFailed => .. | SFuel => SFuel end`.
   The two relations between runs that are carried through the loops (check = position of parse, [pos_of_bind];
   more fuel = same result, [upto_bind]) are each shown once to be preserved by that match. *)
From Coq Require Import List NArith Arith Bool Lia.
From PT Require Import Model.Base Model.SkipN Proofs.BaseFacts Proofs.FuelFacts.
Import ListNotations.

Definition pos_of {A} (r : sres (nat * A)) : sres nat :=
  match r with
  | SOk (p, _) => SOk p
  | SFailed => SFailed
  | SFuel => SFuel
  end.

Lemma pos_of_ok {A} (r : sres (nat * A)) p : pos_of r = SOk p <-> exists v, r = SOk (p, v).
Proof.
  destruct r as [[p' v]| |]; cbn [pos_of]; split; try discriminate; try (intros [v' H]; discriminate H).
  - intro H. injection H as ->. eauto.
  - intros [v' H]. injection H as -> _. reflexivity.
Qed.

Lemma pos_of_failed {A} (r : sres (nat * A)) : pos_of r = SFailed <-> r = SFailed.
Proof. destruct r as [[p v]| |]; cbn [pos_of]; split; congruence. Qed.

Lemma pos_of_fuel {A} (r : sres (nat * A)) : pos_of r = SFuel <-> r = SFuel.
Proof. destruct r as [[p v]| |]; cbn [pos_of]; split; congruence. Qed.

Lemma pos_of_bind {A B} c (p : sres (nat * A)) kc fc (kp : nat * A -> sres (nat * B)) fp :
  c = pos_of p -> (forall pos a, kc pos = pos_of (kp (pos, a))) -> fc = pos_of fp ->
  match c with SOk pos => kc pos | SFailed => fc | SFuel => SFuel end
  = pos_of (match p with SOk pa => kp pa | SFailed => fp | SFuel => SFuel end).
Proof. intros -> Hk ->. destruct p as [[pos a]| |]; cbn [pos_of]; auto. Qed.

(* the check path hands on the offset of a call whose value the parse path repackages *)
Lemma pos_of_map {A B} c (p : sres (nat * A)) (kp : nat * A -> sres (nat * B)) :
  c = pos_of p -> (forall pos a, pos_of (kp (pos, a)) = SOk pos) ->
  c = pos_of (match p with SOk pa => kp pa | SFailed => SFailed | SFuel => SFuel end).
Proof. intros -> Hk. destruct p as [[pos a]| |]; cbn [pos_of]; auto. Qed.

Section Agree.
  Variable s : list byte.
  Variables (P PN : snode -> nat -> sres (nat * sval)) (C CN : snode -> nat -> sres nat).
  Variable lf : nat.
  Hypothesis HC : forall n pos, C n pos = pos_of (P n pos).
  Hypothesis HCN : forall n pos, CN n pos = pos_of (PN n pos).

  Lemma cskips_seq_agree k skip : forall pos, cskips_seq CN k skip pos = pos_of (pskips PN k skip pos).
  Proof.
    induction k as [|k IH]; intro pos; cbn [cskips_seq pskips]; [reflexivity|].
    apply pos_of_bind; [apply HCN| |reflexivity]. intros p v. apply pos_of_map; [apply IH|reflexivity].
  Qed.

  (* the loop of a repetition tests `i > 0` at every round, that of a sequence not at all *)
  Lemma cskips_eq k skip i : forall pos,
    cskips CN k skip i pos = if i =? 0 then SOk pos else cskips_seq CN k skip pos.
  Proof.
    destruct i as [|i]; induction k as [|k IH]; intro pos;
      cbn [cskips cskips_seq Nat.eqb Nat.ltb Nat.leb]; try reflexivity; [apply IH|].
    destruct (CN skip pos); [apply IH|reflexivity|reflexivity].
  Qed.

  Lemma cunit_agree el skip k i pos : cunit C CN el skip k i pos = pos_of (punit P PN el skip k i pos).
  Proof.
    unfold cunit, punit. rewrite cskips_eq.
    apply pos_of_bind; [destruct (i =? 0); [reflexivity|apply cskips_seq_agree]| |reflexivity].
    intros p1 sk. apply pos_of_map; [apply HC|reflexivity].
  Qed.

  Lemma cfin_agree mn mx pos acc : cfin mn mx pos (length acc) = pos_of (pfin mn mx pos acc).
  Proof. unfold cfin, pfin. destruct mx; [destruct (length acc <? mn)|]; reflexivity. Qed.

  Lemma crep_agree n el skip k mn mx : forall i pos acc,
    crep C CN n el skip k mn mx i pos (length acc) = pos_of (prep P PN n el skip k mn mx i pos acc).
  Proof.
    induction n as [|n IH]; intros i pos acc; cbn [crep prep]; destruct (below i mx);
      try apply cfin_agree; [reflexivity|].
    apply pos_of_bind; [apply cunit_agree|intros p it; apply (IH (S i) p (it :: acc))|].
    destruct (i <? mn); [reflexivity|apply cfin_agree].
  Qed.

  Lemma crep_nf_agree n el skip k mx : forall i pos acc,
    crep_nf C CN n el skip k mx i pos = pos_of (prep_nf P PN n el skip k mx i pos acc).
  Proof.
    induction n as [|n IH]; intros i pos acc; cbn [crep_nf prep_nf]; destruct (below i mx); try reflexivity.
    apply pos_of_bind; [apply cunit_agree|intros; apply IH|reflexivity].
  Qed.

  Lemma cseq_agree els skip k : forall first pos acc,
    cseq C CN els skip k first pos = pos_of (pseq P PN els skip k first pos acc).
  Proof.
    induction els as [|e rest IH]; intros first pos acc; cbn [cseq pseq]; [reflexivity|].
    apply pos_of_bind; [destruct first; [reflexivity|apply cskips_seq_agree]| |reflexivity].
    intros p1 sk. apply pos_of_bind; [apply HC|intros; apply IH|reflexivity].
  Qed.

  Lemma sc_step_agree n pos : sc_step s C CN lf n pos = pos_of (sp_step s P PN lf n pos).
  Proof.
    destruct n as [str| |a b|els skip k|el skip k mn mx]; cbn [sc_step sp_step].
    - destruct (str_at s str pos); reflexivity.
    - reflexivity.
    - apply pos_of_bind; [apply HC|reflexivity|]. apply pos_of_map; [apply HC|reflexivity].
    - apply cseq_agree.
    - apply (crep_agree lf el skip k mn mx 0 pos []).
  Qed.

  Lemma scnf_step_agree n pos : scnf_step C CN lf n pos = pos_of (spnf_step P PN lf n pos).
  Proof.
    destruct n as [str| |a b|els skip k|el skip k mn mx]; cbn [scnf_step spnf_step]; try reflexivity.
    destruct mn; [apply crep_nf_agree|reflexivity].
  Qed.
End Agree.

Lemma check_is_parse_both f s :
  (forall n pos, scheck f s n pos = pos_of (sparse f s n pos)) /\
  (forall n pos, scheck_nf f s n pos = pos_of (sparse_nf f s n pos)).
Proof.
  induction f as [|f [IH1 IH2]]; [split; reflexivity|].
  split; intros n pos.
  - exact (sc_step_agree s _ _ _ _ f IH1 IH2 n pos).
  - exact (scnf_step_agree _ _ _ _ f IH1 IH2 n pos).
Qed.

Theorem check_is_parse : forall f s n pos, scheck f s n pos = pos_of (sparse f s n pos).
Proof. intros f s. apply (check_is_parse_both f s). Qed.

Theorem check_is_parse_nf : forall f s n pos, scheck_nf f s n pos = pos_of (sparse_nf f s n pos).
Proof. intros f s. apply (check_is_parse_both f s). Qed.

Corollary check_ok_iff f s n pos p : scheck f s n pos = SOk p <-> exists v, sparse f s n pos = SOk (p, v).
Proof. rewrite check_is_parse. apply pos_of_ok. Qed.

Corollary check_failed_iff f s n pos : scheck f s n pos = SFailed <-> sparse f s n pos = SFailed.
Proof. rewrite check_is_parse. apply pos_of_failed. Qed.

Corollary check_fuel_iff f s n pos : scheck f s n pos = SFuel <-> sparse f s n pos = SFuel.
Proof. rewrite check_is_parse. apply pos_of_fuel. Qed.

Lemma prep_nf_not_failed P PN n el skip k mx : forall i pos acc,
  prep_nf P PN n el skip k mx i pos acc <> SFailed.
Proof.
  induction n as [|n IH]; intros i pos acc; cbn [prep_nf]; destruct (below i mx); try discriminate.
  destruct (punit P PN el skip k i pos) as [[p it]| |]; try discriminate. apply IH.
Qed.

Lemma prep_nf_is_prep P PN n el skip k mx : forall i pos acc,
  prep_nf P PN n el skip k mx i pos acc = prep P PN n el skip k 0 mx i pos acc.
Proof.
  assert (Hfin : forall pos acc, SOk (pos, VRep (rev acc)) = pfin 0 mx pos acc) by (destruct mx; reflexivity).
  induction n as [|n IH]; intros i pos acc; cbn [prep_nf prep]; destruct (below i mx); try apply Hfin; [reflexivity|].
  destruct (punit P PN el skip k i pos) as [[p it]| |]; [apply IH|apply Hfin|reflexivity].
Qed.

Lemma skip_shape_inv n : skip_shape n = true -> n = SEmpty \/ exists el skip k mx, n = SRep el skip k 0 mx.
Proof. destruct n as [| | | |el skip k [|mn] mx]; try discriminate; eauto 6. Qed.

Theorem sparse_nf_never_fails : forall f s n pos, skip_shape n = true -> sparse_nf f s n pos <> SFailed.
Proof.
  intros [|f] s n pos Hs; [discriminate|].
  destruct (skip_shape_inv n Hs) as [->|(el & skip & k & mx & ->)]; [discriminate|apply prep_nf_not_failed].
Qed.

Theorem scheck_nf_never_fails : forall f s n pos, skip_shape n = true -> scheck_nf f s n pos <> SFailed.
Proof. intros f s n pos Hs. rewrite check_is_parse_nf, pos_of_failed. apply sparse_nf_never_fails, Hs. Qed.

(* on the nodes accepted as Skip, `parse_with` is `try_parse_partial_with` (which therefore never fails either) *)
Theorem sparse_nf_is_sparse : forall f s n pos, skip_shape n = true -> sparse_nf f s n pos = sparse f s n pos.
Proof.
  intros [|f] s n pos Hs; [reflexivity|].
  destruct (skip_shape_inv n Hs) as [->|(el & skip & k & mx & ->)]; [reflexivity|apply prep_nf_is_prep].
Qed.

Theorem scheck_nf_is_scheck : forall f s n pos, skip_shape n = true -> scheck_nf f s n pos = scheck f s n pos.
Proof. intros. rewrite check_is_parse_nf, check_is_parse, sparse_nf_is_sparse by assumption. reflexivity. Qed.

(* C19 / C07: the never-failing entry points (`NeverFailedTypedNode::parse_with` / `check_with`) of the repetitions with MIN = 0
   and of the empty node (`skip_shape`), for ANY skip count and ANY skip node: they are the fallible entry points (same offset, same value), which therefore never fail;
   in particular the skip is matched between the iterations and not before the first one on these entry points as well. *)
Theorem nf_entry_points : forall f s n pos, skip_shape n = true ->
  sparse_nf f s n pos = sparse f s n pos /\ scheck_nf f s n pos = scheck f s n pos /\
  sparse_nf f s n pos <> SFailed /\ scheck_nf f s n pos <> SFailed /\
  scheck_nf f s n pos = pos_of (sparse_nf f s n pos).
Proof.
  intros f s n pos H.
  exact (conj (sparse_nf_is_sparse f s n pos H) (conj (scheck_nf_is_scheck f s n pos H)
    (conj (sparse_nf_never_fails f s n pos H) (conj (scheck_nf_never_fails f s n pos H) (check_is_parse_nf f s n pos))))).
Qed.

Lemma skip_ok_shape n : skip_ok n = true -> skip_shape n = true.
Proof. intro H. exact (proj1 (andb_prop _ _ H)). Qed.

Theorem nf_never_fails : forall f s n pos, skip_ok n = true ->
  sparse_nf f s n pos <> SFailed /\ scheck_nf f s n pos <> SFailed.
Proof.
  intros f s n pos H. apply skip_ok_shape in H.
  split; [apply sparse_nf_never_fails|apply scheck_nf_never_fails]; assumption.
Qed.

Lemma skip_ok_SRep el skip k mn mx :
  skip_ok (SRep el skip k mn mx) = true <-> mn = 0 /\ wf_snode el = true /\ skip_ok skip = true.
Proof.
  unfold skip_ok. cbn [skip_shape wf_snode]. destruct mn; cbn [andb]; [rewrite andb_true_iff; tauto|].
  split; [discriminate|intros (H & _); discriminate H].
Qed.

Lemma wf_SRep el skip k mn mx :
  wf_snode (SRep el skip k mn mx) = true <-> wf_snode el = true /\ skip_ok skip = true.
Proof. apply andb_true_iff. Qed.

Lemma wf_SSeq els skip k :
  wf_snode (SSeq els skip k) = true <-> Forall (fun e => wf_snode e = true) els /\ skip_ok skip = true.
Proof. cbn [wf_snode]. rewrite andb_true_iff, forallb_forall, Forall_forall. reflexivity. Qed.

(* The relations are indexed by what "matches" / "fails" means for the element and for the skip:
     M n pos p v  : node n matches at pos, ends at p, value v      (try_parse_partial_with)
     MN n pos p v : the never-failing parse of n at pos ends at p   (parse_with)
     F n pos      : node n fails at pos
   They are instantiated below with the runs of [sparse] / [sparse_nf] at a given fuel ([okrel], [failrel])
   and with the fuel-free relations [smatch], [smatch_nf], [sfails]. *)
Section Chain.
  Variables (M MN : snode -> nat -> nat -> sval -> Prop) (F : snode -> nat -> Prop).
  Variables (skip : snode) (k : nat).

  (* j consecutive never-failing skip matches from pos, values vs, ending at p *)
  Inductive skips_run : nat -> nat -> list sval -> nat -> Prop :=
  | skips_nil pos : skips_run 0 pos [] pos
  | skips_cons j pos p1 v vs p2 :
      MN skip pos p1 v -> skips_run j p1 vs p2 -> skips_run (S j) pos (v :: vs) p2.

  (* unit number i of element el, starting at pos (where the previous unit ended), ending at p:
     unit 0 is the element at pos, its array holds k defaults;
     unit i > 0 is k consecutive skip matches and then the element right after them *)
  Inductive unit_at (el : snode) : nat -> nat -> list sval * sval -> nat -> Prop :=
  | unit_first pos p v :
      M el pos p v -> unit_at el 0 pos (repeat (default_val skip) k, v) p
  | unit_next i pos sk p1 v p :
      skips_run k pos sk p1 -> M el p1 p v -> unit_at el (S i) pos (sk, v) p.

  (* unit number i from pos fails AT THE ELEMENT (the skips, which never fail, are matched first) *)
  Inductive unit_fails (el : snode) : nat -> nat -> Prop :=
  | fails_first pos : F el pos -> unit_fails el 0 pos
  | fails_next i pos sk p1 : skips_run k pos sk p1 -> F el p1 -> unit_fails el (S i) pos.

  (* the chain of units number i, i+1, ... of a repetition, from pos; p = end of the last unit *)
  Inductive units_from (el : snode) : nat -> nat -> list (list sval * sval) -> nat -> Prop :=
  | units_nil i pos : units_from el i pos [] pos
  | units_cons i pos it p1 its p :
      unit_at el i pos it p1 -> units_from el (S i) p1 its p -> units_from el i pos (it :: its) p.

  (* a chain that cannot be continued: it has reached MAX, or its next unit fails *)
  Definition max_chain (el : snode) (mx : option nat) (i pos : nat) (its : list (list sval * sval)) (p : nat) : Prop :=
    units_from el i pos its p /\
    (forall m, mx = Some m -> i + length its <= m) /\
    (mx = Some (i + length its) \/ unit_fails el (i + length its) p).

  (* the chain of the elements number i, i+1, ... of a sequence *)
  Inductive seq_from : nat -> list snode -> nat -> list (list sval * sval) -> nat -> Prop :=
  | seq_nil i pos : seq_from i [] pos [] pos
  | seq_cons i e els pos it p1 its p :
      unit_at e i pos it p1 -> seq_from (S i) els p1 its p -> seq_from i (e :: els) pos (it :: its) p.

  Definition seq_fails (i : nat) (els : list snode) (pos : nat) : Prop :=
    exists els1 e els2 its p1,
      els = els1 ++ e :: els2 /\ seq_from i els1 pos its p1 /\ unit_fails e (i + length els1) p1.

  Lemma skips_run_length j pos vs p : skips_run j pos vs p -> length vs = j.
  Proof. induction 1 as [|j pos p1 v vs p2 _ _ IH]; cbn [length]; congruence. Qed.

  Lemma unit_at_length el i pos it p : unit_at el i pos it p -> length (fst it) = k.
  Proof.
    destruct 1 as [pos p v _|i pos sk p1 v p Hs _]; cbn [fst].
    - apply repeat_length.
    - eapply skips_run_length; eassumption.
  Qed.

  Lemma unit_at_first el pos it p : unit_at el 0 pos it p -> fst it = repeat (default_val skip) k.
  Proof. intro H. inversion H. reflexivity. Qed.

  Lemma units_from_lengths el i pos its p :
    units_from el i pos its p -> Forall (fun it => length (fst it) = k) its.
  Proof.
    induction 1 as [|i pos it p1 its p Hu _ IH]; constructor; [|exact IH].
    eapply unit_at_length; eassumption.
  Qed.

  Lemma units_from_first el pos it its p :
    units_from el 0 pos (it :: its) p -> fst it = repeat (default_val skip) k.
  Proof. intro H. inversion H. eapply unit_at_first; eassumption. Qed.

  Lemma seq_from_length i els pos its p : seq_from i els pos its p -> length its = length els.
  Proof. induction 1 as [|i e els pos it p1 its p _ _ IH]; cbn [length]; congruence. Qed.

  Lemma seq_from_lengths i els pos its p :
    seq_from i els pos its p -> Forall (fun it => length (fst it) = k) its.
  Proof.
    induction 1 as [|i e els pos it p1 its p Hu _ IH]; constructor; [|exact IH].
    eapply unit_at_length; eassumption.
  Qed.

  Lemma seq_from_first els pos it its p :
    seq_from 0 els pos (it :: its) p -> fst it = repeat (default_val skip) k.
  Proof. intro H. inversion H. eapply unit_at_first; eassumption. Qed.
End Chain.

Section ChainImpl.
  Variables (M MN M' MN' : snode -> nat -> nat -> sval -> Prop) (F F' : snode -> nat -> Prop).
  Variables (skip : snode) (k : nat).
  Hypothesis HM : forall n pos p v, M n pos p v -> M' n pos p v.
  Hypothesis HMN : forall n pos p v, MN n pos p v -> MN' n pos p v.
  Hypothesis HF : forall n pos, F n pos -> F' n pos.

  Lemma skips_run_impl j pos vs p : skips_run MN skip j pos vs p -> skips_run MN' skip j pos vs p.
  Proof. induction 1; econstructor; eauto. Qed.

  Lemma unit_at_impl el i pos it p : unit_at M MN skip k el i pos it p -> unit_at M' MN' skip k el i pos it p.
  Proof. destruct 1; econstructor; eauto using skips_run_impl. Qed.

  Lemma unit_fails_impl el i pos : unit_fails MN F skip k el i pos -> unit_fails MN' F' skip k el i pos.
  Proof. destruct 1; econstructor; eauto using skips_run_impl. Qed.

  Lemma units_from_impl el i pos its p :
    units_from M MN skip k el i pos its p -> units_from M' MN' skip k el i pos its p.
  Proof. induction 1; econstructor; eauto using unit_at_impl. Qed.

  Lemma max_chain_impl el mx i pos its p :
    max_chain M MN F skip k el mx i pos its p -> max_chain M' MN' F' skip k el mx i pos its p.
  Proof.
    intros (Hu & Hle & Hs). split; [apply units_from_impl, Hu|]. split; [exact Hle|].
    destruct Hs as [Hs|Hs]; [left; exact Hs|right; apply unit_fails_impl, Hs].
  Qed.

  Lemma seq_from_impl i els pos its p :
    seq_from M MN skip k i els pos its p -> seq_from M' MN' skip k i els pos its p.
  Proof. induction 1; econstructor; eauto using unit_at_impl. Qed.

  Lemma seq_fails_impl i els pos : seq_fails M MN F skip k i els pos -> seq_fails M' MN' F' skip k i els pos.
  Proof.
    intros (els1 & e & els2 & its & p1 & H1 & H2 & H3).
    exists els1, e, els2, its, p1. split; [exact H1|]. split; [apply seq_from_impl|apply unit_fails_impl]; assumption.
  Qed.
End ChainImpl.

Section ChainBound.
  Variables (M MN : snode -> nat -> nat -> sval -> Prop) (skip : snode) (k len : nat).
  Hypothesis HM : forall n pos p v, pos <= len -> M n pos p v -> pos <= p <= len.
  Hypothesis HMN : forall n pos p v, pos <= len -> MN n pos p v -> pos <= p <= len.

  Lemma skips_run_bound j pos vs p : skips_run MN skip j pos vs p -> pos <= len -> pos <= p <= len.
  Proof.
    induction 1 as [pos|j pos p1 v vs p2 H1 _ IH]; intro Hp; [lia|].
    apply (HMN _ _ _ _ Hp) in H1. destruct IH; lia.
  Qed.

  Lemma unit_at_bound el i pos it p : unit_at M MN skip k el i pos it p -> pos <= len -> pos <= p <= len.
  Proof.
    destruct 1 as [pos p v H|i pos sk p1 v p Hs H]; intro Hp; [exact (HM _ _ _ _ Hp H)|].
    apply skips_run_bound in Hs; [|exact Hp]. apply HM in H; lia.
  Qed.

  Lemma units_from_bound el i pos its p : units_from M MN skip k el i pos its p -> pos <= len -> pos <= p <= len.
  Proof.
    induction 1 as [i pos|i pos it p1 its p Hu _ IH]; intro Hp; [lia|].
    apply unit_at_bound in Hu; [|exact Hp]. destruct IH; lia.
  Qed.

  Lemma seq_from_bound i els pos its p : seq_from M MN skip k i els pos its p -> pos <= len -> pos <= p <= len.
  Proof.
    induction 1 as [i pos|i e els pos it p1 its p Hu _ IH]; intro Hp; [lia|].
    apply unit_at_bound in Hu; [|exact Hp]. destruct IH; lia.
  Qed.
End ChainBound.

Definition okrel (P : snode -> nat -> sres (nat * sval)) : snode -> nat -> nat -> sval -> Prop :=
  fun n pos p v => P n pos = SOk (p, v).
Definition failrel (P : snode -> nat -> sres (nat * sval)) : snode -> nat -> Prop :=
  fun n pos => P n pos = SFailed.

Lemma below_false mx i : below i mx = false -> (forall m, mx = Some m -> i <= m) -> mx = Some i.
Proof.
  unfold below. destruct mx as [m|]; [|discriminate]. intros H Hle.
  apply Nat.ltb_ge in H. specialize (Hle m eq_refl). f_equal. lia.
Qed.

Lemma below_true mx i : below i mx = true <-> forall m, mx = Some m -> i < m.
Proof.
  unfold below. destruct mx as [m|].
  - rewrite Nat.ltb_lt. split; [intros H m' Hm; injection Hm as <-; exact H|auto].
  - split; [discriminate|reflexivity].
Qed.

(* what the loop returns when it stops after j units at p: `i < MIN` inside the loop, `vec.len() < MIN`
   after it (RepeatMinMax only) *)
Definition rep_result (mn j p : nat) (items : list (list sval * sval)) : sres (nat * sval) :=
  if j <? mn then SFailed else SOk (p, VRep items).

Lemma rep_result_ok mn j p items p' v :
  rep_result mn j p items = SOk (p', v) <-> mn <= j /\ p' = p /\ v = VRep items.
Proof.
  unfold rep_result. destruct (j <? mn) eqn:E.
  - apply Nat.ltb_lt in E. split; [discriminate|lia].
  - apply Nat.ltb_ge in E. split; [intro H; injection H as <- <-; auto|intros (_ & -> & ->); reflexivity].
Qed.

Lemma rep_result_failed mn j p items : rep_result mn j p items = SFailed <-> j < mn.
Proof.
  unfold rep_result. destruct (j <? mn) eqn:E.
  - apply Nat.ltb_lt in E. tauto.
  - apply Nat.ltb_ge in E. split; [discriminate|lia].
Qed.

Section Charact.
  Variables (P PN : snode -> nat -> sres (nat * sval)).
  Variables (skip : snode) (k : nat).
  Local Notation M := (okrel P).
  Local Notation MN := (okrel PN).
  Local Notation F := (failrel P).

  Lemma pskips_run j pos p vs : pskips PN j skip pos = SOk (p, vs) <-> skips_run MN skip j pos vs p.
  Proof.
    split.
    - revert pos p vs. induction j as [|j IH]; intros pos p vs H; cbn [pskips] in H.
      + injection H as <- <-. constructor.
      + destruct (PN skip pos) as [[p1 v]| |] eqn:E1; try discriminate H.
        destruct (pskips PN j skip p1) as [[p2 vs2]| |] eqn:E2; try discriminate H.
        injection H as <- <-. econstructor; [exact E1|apply IH, E2].
    - induction 1 as [pos|j pos p1 v vs p2 H1 _ IH]; cbn [pskips]; [reflexivity|].
      unfold okrel in H1. rewrite H1, IH. reflexivity.
  Qed.

  (* the one case analysis of a unit: the skips (for i > 0), then the element *)
  Lemma punit_inv el i pos :
    match punit P PN el skip k i pos with
    | SOk (p, it) => unit_at M MN skip k el i pos it p
    | SFailed => unit_fails MN F skip k el i pos \/ pskips PN k skip pos = SFailed
    | SFuel => True
    end.
  Proof.
    unfold punit. destruct i as [|i]; cbn [Nat.eqb].
    - destruct (P el pos) as [[p v]| |] eqn:E; [constructor; exact E|left; constructor; exact E|exact I].
    - destruct (pskips PN k skip pos) as [[p1 sk]| |] eqn:E1; [|right; reflexivity|exact I].
      apply pskips_run in E1.
      destruct (P el p1) as [[p v]| |] eqn:E2; [|left|exact I]; econstructor; eassumption.
  Qed.

  Lemma punit_ok el i pos p it :
    punit P PN el skip k i pos = SOk (p, it) <-> unit_at M MN skip k el i pos it p.
  Proof.
    split.
    - intro H. pose proof (punit_inv el i pos) as I. rewrite H in I. exact I.
    - unfold punit. destruct 1 as [pos p v HM|i pos sk p1 v p Hs HM]; cbn [Nat.eqb]; [|apply pskips_run in Hs; rewrite Hs];
        unfold okrel in HM; rewrite HM; reflexivity.
  Qed.

  Lemma unit_fails_punit el i pos : unit_fails MN F skip k el i pos -> punit P PN el skip k i pos = SFailed.
  Proof.
    unfold punit. destruct 1 as [pos HF|i pos sk p1 Hs HF]; cbn [Nat.eqb]; [|apply pskips_run in Hs; rewrite Hs];
      unfold failrel in HF; rewrite HF; reflexivity.
  Qed.

  Variables (el : snode) (mn : nat) (mx : option nat).

  Lemma prep_stop n j p acc : length acc = j ->
    mx = Some j \/ punit P PN el skip k j p = SFailed ->
    prep P PN (S n) el skip k mn mx j p acc = rep_result mn j p (rev acc).
  Proof.
    intros <- Hs. cbn [prep]. unfold rep_result, pfin. destruct (below (length acc) mx) eqn:Hb.
    - destruct Hs as [Hs| ->]; [apply (proj1 (below_true _ _) Hb) in Hs; lia|].
      destruct (length acc <? mn), mx; reflexivity.
    - unfold below in Hb. destruct mx; [reflexivity|discriminate Hb].
  Qed.

  Lemma prep_spec n : forall pos acc, (forall m, mx = Some m -> length acc <= m) ->
    prep P PN n el skip k mn mx (length acc) pos acc = SFuel \/
    exists its p,
      units_from M MN skip k el (length acc) pos its p /\
      (forall m, mx = Some m -> length acc + length its <= m) /\
      (mx = Some (length acc + length its) \/ punit P PN el skip k (length acc + length its) p = SFailed) /\
      prep P PN n el skip k mn mx (length acc) pos acc = rep_result mn (length acc + length its) p (rev acc ++ its).
  Proof.
    induction n as [|n IH]; intros pos acc Hle.
    { cbn [prep]. destruct (below (length acc) mx) eqn:Hb; [left; reflexivity|right].
      exists [], pos. rewrite Nat.add_0_r, app_nil_r. apply below_false in Hb; [|exact Hle].
      refine (conj (units_nil _ _ _ _ _ _ _) (conj Hle (conj (or_introl Hb) _))).
      rewrite Hb. reflexivity. }
    destruct (below (length acc) mx) eqn:Hb; [destruct (punit P PN el skip k (length acc) pos) as [[p1 it]| |] eqn:E|].
    - destruct (IH p1 (it :: acc)) as [H|(its & p & Hu & Hm & Hs & H)].
      { intros m Hm. apply (proj1 (below_true _ _) Hb) in Hm. exact Hm. }
      { left. cbn [prep]. rewrite Hb, E. exact H. }
      right. exists (it :: its), p. cbn [length rev] in *. rewrite <- app_assoc in H. rewrite Nat.add_succ_r.
      refine (conj (units_cons _ _ _ _ _ _ _ _ _ _ _ (proj1 (punit_ok _ _ _ _ _) E) Hu) (conj Hm (conj Hs _))).
      cbn [prep]. rewrite Hb, E. exact H.
    - right. exists [], pos. rewrite Nat.add_0_r, app_nil_r.
      refine (conj (units_nil _ _ _ _ _ _ _) (conj Hle (conj (or_intror E) _))).
      apply prep_stop; [reflexivity|right; exact E].
    - left. cbn [prep]. rewrite Hb, E. reflexivity.
    - right. exists [], pos. rewrite Nat.add_0_r, app_nil_r. apply below_false in Hb; [|exact Hle].
      refine (conj (units_nil _ _ _ _ _ _ _) (conj Hle (conj (or_introl Hb) _))).
      apply prep_stop; [reflexivity|left; exact Hb].
  Qed.

  Lemma prep_run i pos its p : units_from M MN skip k el i pos its p ->
    (forall m, mx = Some m -> i + length its <= m) ->
    forall n acc, prep P PN (length its + n) el skip k mn mx i pos acc
                  = prep P PN n el skip k mn mx (i + length its) p (rev its ++ acc).
  Proof.
    induction 1 as [i pos|i pos it p1 its p Hu _ IH]; intros Hle n acc; cbn [length rev app Nat.add prep].
    - rewrite Nat.add_0_r. reflexivity.
    - replace (below i mx) with true by (symmetry; apply below_true; intros m Hm; specialize (Hle m Hm); cbn [length] in Hle; lia).
      rewrite (proj2 (punit_ok _ _ _ _ _) Hu), IH, <- app_assoc, Nat.add_succ_r; [reflexivity|].
      intros m Hm. specialize (Hle m Hm). cbn [length] in Hle. lia.
  Qed.

  Lemma prep_complete pos items p n : max_chain M MN F skip k el mx 0 pos items p ->
    prep P PN (length items + S n) el skip k mn mx 0 pos [] = rep_result mn (length items) p items.
  Proof.
    intros (Hu & Hle & Hs). rewrite (prep_run _ _ _ _ Hu Hle), app_nil_r. cbn [Nat.add] in *.
    pose proof (prep_stop n (length items) p (rev items)) as H. rewrite rev_involutive in H.
    apply H; [apply rev_length|].
    destruct Hs as [Hs|Hs]; [left; exact Hs|right; apply unit_fails_punit, Hs].
  Qed.

  Lemma pseq_cons e rest i pos acc :
    pseq P PN (e :: rest) skip k (i =? 0) pos acc =
    match punit P PN e skip k i pos with
    | SOk (p2, it) => pseq P PN rest skip k false p2 (it :: acc)
    | SFailed => SFailed
    | SFuel => SFuel
    end.
  Proof.
    cbn [pseq]. unfold punit.
    destruct (if i =? 0 then SOk (pos, repeat (default_val skip) k) else pskips PN k skip pos)
      as [[p1 sk]| |]; try reflexivity.
    destruct (P e p1) as [[p2 v]| |]; reflexivity.
  Qed.

  Lemma pseq_ok els i pos acc p v :
    pseq P PN els skip k (i =? 0) pos acc = SOk (p, v) <->
    exists its, v = VSeq (rev acc ++ its) /\ seq_from M MN skip k i els pos its p.
  Proof.
    split.
    - revert i pos acc. induction els as [|e rest IH]; intros i pos acc H.
      + injection H as <- <-. exists []. rewrite app_nil_r. split; [reflexivity|constructor].
      + rewrite pseq_cons in H. destruct (punit P PN e skip k i pos) as [[p2 it]| |] eqn:E; try discriminate H.
        apply (IH (S i)) in H. destruct H as (its & -> & Hs).
        exists (it :: its). cbn [rev]. rewrite <- app_assoc. split; [reflexivity|].
        econstructor; [apply punit_ok; exact E|exact Hs].
    - intros (its & -> & Hs). revert acc. induction Hs as [i pos|i e els pos it p1 its p Hu _ IH]; intro acc.
      + cbn [pseq]. rewrite app_nil_r. reflexivity.
      + rewrite pseq_cons, (proj2 (punit_ok _ _ _ _ _) Hu). specialize (IH (it :: acc)). cbn [rev] in IH.
        rewrite <- app_assoc in IH. exact IH.
  Qed.

  (* from here on the skip node never fails (it is skip_ok) *)
  Hypothesis PN_nf : forall pos, PN skip pos <> SFailed.

  Lemma pskips_not_failed j : forall pos, pskips PN j skip pos <> SFailed.
  Proof.
    induction j as [|j IH]; intro pos; cbn [pskips]; [discriminate|].
    destruct (PN skip pos) as [[p1 v]| |] eqn:E1; try discriminate.
    - specialize (IH p1). destruct (pskips PN j skip p1) as [[p2 vs2]| |]; congruence.
    - exfalso. eapply PN_nf; eassumption.
  Qed.

  Lemma punit_failed el' i pos :
    punit P PN el' skip k i pos = SFailed <-> unit_fails MN F skip k el' i pos.
  Proof.
    split; [|apply unit_fails_punit].
    intro H. pose proof (punit_inv el' i pos) as I. rewrite H in I.
    destruct I as [I|I]; [exact I|exfalso; exact (pskips_not_failed _ _ I)].
  Qed.

  (* since a skip never fails, a unit fails only at its element: the chain of [prep_spec] is a [max_chain] *)
  Lemma prep_max_chain n pos :
    prep P PN n el skip k mn mx 0 pos [] = SFuel \/
    exists items p, max_chain M MN F skip k el mx 0 pos items p /\
      prep P PN n el skip k mn mx 0 pos [] = rep_result mn (length items) p items.
  Proof.
    destruct (prep_spec n pos [] (fun m _ => Nat.le_0_l m)) as [H|(its & p & Hu & Hle & Hs & H)]; [left; exact H|right].
    exists its, p. split; [|exact H]. split; [exact Hu|]. split; [exact Hle|].
    destruct Hs as [Hs|Hs]; [left; exact Hs|right; apply punit_failed, Hs].
  Qed.

  Lemma pseq_failed els i pos acc :
    pseq P PN els skip k (i =? 0) pos acc = SFailed <-> seq_fails M MN F skip k i els pos.
  Proof.
    split.
    - revert i pos acc. induction els as [|e rest IH]; intros i pos acc H; [discriminate H|].
      rewrite pseq_cons in H. destruct (punit P PN e skip k i pos) as [[p2 it]| |] eqn:E; try discriminate H.
      + apply (IH (S i)) in H. destruct H as (els1 & e' & els2 & its & p1 & -> & Hs & Hf).
        exists (e :: els1), e', els2, (it :: its), p1. split; [reflexivity|]. split.
        * econstructor; [apply punit_ok; exact E|exact Hs].
        * cbn [length]. rewrite Nat.add_succ_r. exact Hf.
      + exists [], e, rest, [], pos. split; [reflexivity|]. split; [constructor|].
        cbn [length]. rewrite Nat.add_0_r. apply punit_failed. exact E.
    - intros (els1 & e' & els2 & its & p1 & -> & Hs & Hf). revert acc Hf.
      induction Hs as [i pos|i e els pos it p1 its p Hu _ IH]; intros acc Hf; cbn [app length] in *;
        rewrite pseq_cons.
      + rewrite Nat.add_0_r in Hf. rewrite (unit_fails_punit _ _ _ Hf). reflexivity.
      + rewrite (proj2 (punit_ok _ _ _ _ _) Hu). apply IH. rewrite Nat.add_succ_r in Hf. exact Hf.
  Qed.
End Charact.

Lemma str_at_bound s str pos : pos <= length s -> str_at s str pos = true -> pos + length str <= length s.
Proof.
  unfold str_at. intros Hp H. apply is_prefix_length in H. rewrite skipn_length in H. lia.
Qed.

Section Bound.
  Variable s : list byte.
  Variables (P PN : snode -> nat -> sres (nat * sval)).
  Variable lf : nat.
  Hypothesis HP : forall n pos p v, pos <= length s -> P n pos = SOk (p, v) -> pos <= p <= length s.
  Hypothesis HPN : forall n pos p v, pos <= length s -> PN n pos = SOk (p, v) -> pos <= p <= length s.

  Lemma prep_bound n el skip k mn mx pos p v : pos <= length s ->
    prep P PN n el skip k mn mx 0 pos [] = SOk (p, v) -> pos <= p <= length s.
  Proof.
    intros Hp H.
    destruct (prep_spec P PN skip k el mn mx n pos [] (fun m _ => Nat.le_0_l m)) as [E|(its & p' & Hu & _ & _ & E)];
      cbn [length] in E; rewrite E in H; [discriminate H|].
    apply rep_result_ok in H. destruct H as (_ & -> & _).
    exact (units_from_bound _ _ skip k (length s) HP HPN el 0 pos its p' Hu Hp).
  Qed.

  Lemma sp_step_bound n pos p v : pos <= length s ->
    sp_step s P PN lf n pos = SOk (p, v) -> pos <= p <= length s.
  Proof.
    intros Hp H. destruct n as [str| |a b|els skip k|el skip k mn mx]; cbn [sp_step] in H.
    - destruct (str_at s str pos) eqn:E; [|discriminate H]. injection H as <- _.
      apply str_at_bound in E; lia.
    - injection H as <- _. lia.
    - destruct (P a pos) as [[p1 v1]| |] eqn:E1; try discriminate H.
      + injection H as <- _. eapply HP; eassumption.
      + destruct (P b pos) as [[p1 v1]| |] eqn:E2; try discriminate H.
        injection H as <- _. eapply HP; eassumption.
    - apply (pseq_ok P PN skip k els 0) in H. destruct H as (its & _ & Hs).
      exact (seq_from_bound _ _ skip k (length s) HP HPN 0 els pos its p Hs Hp).
    - eapply prep_bound; eassumption.
  Qed.

  Lemma spnf_step_bound n pos p v : pos <= length s ->
    spnf_step P PN lf n pos = SOk (p, v) -> pos <= p <= length s.
  Proof.
    intros Hp H. destruct n as [str| |a b|els skip k|el skip k [|mn] mx]; cbn [spnf_step] in H;
      try discriminate H.
    - injection H as <- _. lia.
    - rewrite prep_nf_is_prep in H. eapply prep_bound; eassumption.
  Qed.
End Bound.

Lemma cursor_monotone_both f s :
  (forall n pos p v, pos <= length s -> sparse f s n pos = SOk (p, v) -> pos <= p <= length s) /\
  (forall n pos p v, pos <= length s -> sparse_nf f s n pos = SOk (p, v) -> pos <= p <= length s).
Proof.
  induction f as [|f [IH1 IH2]]; [split; intros n pos p v _ H; discriminate H|].
  split; intros n pos p v.
  - exact (sp_step_bound s (sparse f s) (sparse_nf f s) f IH1 IH2 n pos p v).
  - exact (spnf_step_bound s (sparse f s) (sparse_nf f s) f IH1 IH2 n pos p v).
Qed.

Theorem cursor_monotone : forall f s n pos p v,
  pos <= length s -> sparse f s n pos = SOk (p, v) -> pos <= p <= length s.
Proof. intros f s. apply (cursor_monotone_both f s). Qed.

Theorem cursor_monotone_nf : forall f s n pos p v,
  pos <= length s -> sparse_nf f s n pos = SOk (p, v) -> pos <= p <= length s.
Proof. intros f s. apply (cursor_monotone_both f s). Qed.

Corollary cursor_monotone_check : forall f s n pos p,
  pos <= length s -> scheck f s n pos = SOk p -> pos <= p <= length s.
Proof. intros f s n pos p Hp H. apply check_ok_iff in H. destruct H as [v H]. eapply cursor_monotone; eassumption. Qed.

Lemma upto_bind {A B} (r r' : sres A) (k k' : A -> sres B) (c c' : sres B) :
  upto SFuel r r' -> (forall a, upto SFuel (k a) (k' a)) -> upto SFuel c c' ->
  upto SFuel (match r with SOk a => k a | SFailed => c | SFuel => SFuel end)
             (match r' with SOk a => k' a | SFailed => c' | SFuel => SFuel end).
Proof.
  intros Hr Hk Hc. destruct r as [a| |]; [| |apply upto_fuel];
    rewrite Hr by discriminate; [apply Hk|apply Hc].
Qed.

Section FuelMono.
  Variable s : list byte.
  Variables (P PN P' PN' : snode -> nat -> sres (nat * sval)).
  Variables (lf lf' : nat).
  Hypothesis HP : forall n pos, upto SFuel (P n pos) (P' n pos).
  Hypothesis HPN : forall n pos, upto SFuel (PN n pos) (PN' n pos).
  Hypothesis Hlf : lf <= lf'.

  Lemma pskips_mono k skip : forall pos, upto SFuel (pskips PN k skip pos) (pskips PN' k skip pos).
  Proof.
    induction k as [|k IH]; intros pos; cbn [pskips]; [apply upto_refl|].
    apply upto_bind; [apply HPN| |apply upto_refl]. intros [p v].
    apply upto_bind; [apply IH| |apply upto_refl]. intros [p' vs]. apply upto_refl.
  Qed.

  Lemma punit_mono el skip k i pos : upto SFuel (punit P PN el skip k i pos) (punit P' PN' el skip k i pos).
  Proof.
    unfold punit. apply upto_bind; [destruct (i =? 0); [apply upto_refl|apply pskips_mono]| |apply upto_refl].
    intros [p1 sk]. apply upto_bind; [apply HP| |apply upto_refl]. intros [p2 v]. apply upto_refl.
  Qed.

  Lemma prep_mono el skip k mn mx n : forall n' i pos acc, n <= n' ->
    upto SFuel (prep P PN n el skip k mn mx i pos acc) (prep P' PN' n' el skip k mn mx i pos acc).
  Proof.
    induction n as [|n IH]; intros n' i pos acc Hn.
    - cbn [prep]. destruct n'; cbn [prep]; destruct (below i mx); try apply upto_refl; apply upto_fuel.
    - destruct n' as [|n']; [inversion Hn|]. cbn [prep]. destruct (below i mx); [|apply upto_refl].
      apply upto_bind; [apply punit_mono| |apply upto_refl]. intros [p it]. apply IH, le_S_n, Hn.
  Qed.

  Lemma pseq_mono els skip k : forall first pos acc,
    upto SFuel (pseq P PN els skip k first pos acc) (pseq P' PN' els skip k first pos acc).
  Proof.
    induction els as [|e rest IH]; intros first pos acc; cbn [pseq]; [apply upto_refl|].
    apply upto_bind; [destruct first; [apply upto_refl|apply pskips_mono]| |apply upto_refl].
    intros [p1 sk]. apply upto_bind; [apply HP| |apply upto_refl]. intros [p2 v]. apply IH.
  Qed.

  Lemma sp_step_mono n pos : upto SFuel (sp_step s P PN lf n pos) (sp_step s P' PN' lf' n pos).
  Proof.
    destruct n as [str| |a b|els skip k|el skip k mn mx]; cbn [sp_step]; try apply upto_refl.
    - apply upto_bind; [apply HP|intros [p v]; apply upto_refl|].
      apply upto_bind; [apply HP|intros [p v]; apply upto_refl|apply upto_refl].
    - apply pseq_mono.
    - apply prep_mono, Hlf.
  Qed.

  Lemma spnf_step_mono n pos : upto SFuel (spnf_step P PN lf n pos) (spnf_step P' PN' lf' n pos).
  Proof.
    destruct n as [str| |a b|els skip k|el skip k [|mn] mx]; cbn [spnf_step]; try apply upto_refl.
    rewrite !prep_nf_is_prep. apply prep_mono, Hlf.
  Qed.
End FuelMono.

Lemma sparse_mono_both s f :
  (forall f' n pos, f <= f' -> upto SFuel (sparse f s n pos) (sparse f' s n pos)) /\
  (forall f' n pos, f <= f' -> upto SFuel (sparse_nf f s n pos) (sparse_nf f' s n pos)).
Proof.
  induction f as [|f [IH1 IH2]]; [split; intros; apply upto_fuel|].
  split; intros [|f'] n pos Hle; try destruct (Nat.nle_succ_0 _ Hle); apply le_S_n in Hle.
  - exact (sp_step_mono s _ _ _ _ f f' (fun n pos => IH1 f' n pos Hle) (fun n pos => IH2 f' n pos Hle) Hle n pos).
  - exact (spnf_step_mono _ _ _ _ f f' (fun n pos => IH1 f' n pos Hle) (fun n pos => IH2 f' n pos Hle) Hle n pos).
Qed.

Theorem sparse_mono : forall f f' s n pos,
  f <= f' -> sparse f s n pos <> SFuel -> sparse f' s n pos = sparse f s n pos.
Proof. intros f f' s n pos. apply (sparse_mono_both s f). Qed.

Theorem sparse_nf_mono : forall f f' s n pos,
  f <= f' -> sparse_nf f s n pos <> SFuel -> sparse_nf f' s n pos = sparse_nf f s n pos.
Proof. intros f f' s n pos. apply (sparse_mono_both s f). Qed.

Theorem scheck_mono : forall f f' s n pos,
  f <= f' -> scheck f s n pos <> SFuel -> scheck f' s n pos = scheck f s n pos.
Proof.
  intros f f' s n pos Hle H. rewrite check_fuel_iff in H. rewrite !check_is_parse. f_equal.
  apply sparse_mono; assumption.
Qed.

(* the runs of sparse at fuel S f: the inner calls run with fuel f *)
Definition Mf (f : nat) (s : list byte) := okrel (sparse f s).
Definition MNf (f : nat) (s : list byte) := okrel (sparse_nf f s).
Definition Ff (f : nat) (s : list byte) := failrel (sparse f s).

Lemma skip_ok_nf skip : skip_ok skip = true -> forall f s pos, sparse_nf f s skip pos <> SFailed.
Proof. intros H f s pos. apply sparse_nf_never_fails, skip_ok_shape, H. Qed.

Lemma rep_run_fuel f s el skip k mn mx pos :
  sparse (S f) s (SRep el skip k mn mx) pos = SFuel \/
  exists items p, units_from (Mf f s) (MNf f s) skip k el 0 pos items p /\
    (forall m, mx = Some m -> length items <= m) /\
    sparse (S f) s (SRep el skip k mn mx) pos = rep_result mn (length items) p items.
Proof.
  destruct (prep_spec (sparse f s) (sparse_nf f s) skip k el mn mx f pos [] (fun m _ => Nat.le_0_l m))
    as [E|(its & p & Hu & Hle & _ & E)]; [left; exact E|right].
  exists its, p. exact (conj Hu (conj Hle E)).
Qed.

(* a run that terminates has found the maximal chain of units -- greedy, stopped at MAX or because the
   next unit (skips, then the element) fails at the element -- and returns its end: the skips tried for the
   failing unit are given back.  It fails exactly when that chain has fewer than MIN units. *)
Lemma rep_spec_fuel f s el skip k mn mx pos : wf_snode (SRep el skip k mn mx) = true ->
  sparse (S f) s (SRep el skip k mn mx) pos = SFuel \/
  exists items p, max_chain (Mf f s) (MNf f s) (Ff f s) skip k el mx 0 pos items p /\
    sparse (S f) s (SRep el skip k mn mx) pos = rep_result mn (length items) p items.
Proof.
  intro Hwf. apply wf_SRep in Hwf.
  exact (prep_max_chain (sparse f s) (sparse_nf f s) skip k el mn mx (skip_ok_nf skip (proj2 Hwf) f s) f pos).
Qed.

Lemma rep_complete_fuel f s el skip k mn mx pos items p :
  max_chain (Mf f s) (MNf f s) (Ff f s) skip k el mx 0 pos items p ->
  sparse (S f) s (SRep el skip k mn mx) pos <> SFuel ->
  sparse (S f) s (SRep el skip k mn mx) pos = rep_result mn (length items) p items.
Proof.
  intros Hc Hnf. rewrite <- (prep_complete (sparse f s) (sparse_nf f s) skip k el mn mx pos items p f Hc).
  symmetry. apply (prep_mono _ _ _ _ (fun _ _ => upto_refl _ _) (fun _ _ => upto_refl _ _)); [lia|exact Hnf].
Qed.

(* "fails exactly when fewer than MIN iterations match" *)
Theorem rep_failed_iff_fuel : forall f s el skip k mn mx pos,
  wf_snode (SRep el skip k mn mx) = true ->
  sparse (S f) s (SRep el skip k mn mx) pos <> SFuel ->
  (sparse (S f) s (SRep el skip k mn mx) pos = SFailed <->
   exists items p,
     units_from (Mf f s) (MNf f s) skip k el 0 pos items p /\
     length items < mn /\
     (forall m, mx = Some m -> length items <= m) /\
     (mx = Some (length items) \/ unit_fails (MNf f s) (Ff f s) skip k el (length items) p)).
Proof.
  intros f s el skip k mn mx pos Hwf Hnf. split.
  - intro H. destruct (rep_spec_fuel f s el skip k mn mx pos Hwf) as [E|(items & p & (Hu & Hle & Hs) & E)];
      [contradiction|].
    rewrite E in H. apply rep_result_failed in H. exists items, p. auto.
  - intros (items & p & Hu & Hlt & Hle & Hs).
    rewrite (rep_complete_fuel f s el skip k mn mx pos items p (conj Hu (conj Hle Hs)) Hnf).
    apply rep_result_failed, Hlt.
Qed.

Theorem rep_ok_iff_fuel : forall f s el skip k mn mx pos p items,
  wf_snode (SRep el skip k mn mx) = true ->
  sparse (S f) s (SRep el skip k mn mx) pos <> SFuel ->
  (sparse (S f) s (SRep el skip k mn mx) pos = SOk (p, VRep items) <->
   units_from (Mf f s) (MNf f s) skip k el 0 pos items p /\
   mn <= length items /\
   (forall m, mx = Some m -> length items <= m) /\
   (mx = Some (length items) \/ unit_fails (MNf f s) (Ff f s) skip k el (length items) p)).
Proof.
  intros f s el skip k mn mx pos p items Hwf Hnf. split.
  - intro H. destruct (rep_spec_fuel f s el skip k mn mx pos Hwf) as [E|(items' & p' & (Hu & Hle & Hs) & E)];
      [contradiction|].
    rewrite E in H. apply rep_result_ok in H. destruct H as (Hge & -> & [= ->]). auto.
  - intros (Hu & Hge & Hle & Hs).
    rewrite (rep_complete_fuel f s el skip k mn mx pos items p (conj Hu (conj Hle Hs)) Hnf).
    apply rep_result_ok. auto.
Qed.

(* MIN > MAX: the loop stops at MAX and then `vec.len() < MIN` returns None: never a success *)
Theorem rep_min_above_max : forall f s el skip k mn m pos,
  wf_snode (SRep el skip k mn (Some m)) = true -> m < mn ->
  sparse f s (SRep el skip k mn (Some m)) pos = SFailed \/
  sparse f s (SRep el skip k mn (Some m)) pos = SFuel.
Proof.
  intros [|f] s el skip k mn m pos _ Hlt; [right; reflexivity|].
  destruct (rep_run_fuel f s el skip k mn (Some m) pos) as [E|(items & p & _ & Hle & E)]; [right; exact E|left].
  rewrite E. apply rep_result_failed. specialize (Hle m eq_refl). lia.
Qed.

Theorem rep_value : forall f s el skip k mn mx pos p v,
  sparse f s (SRep el skip k mn mx) pos = SOk (p, v) -> exists items, v = VRep items.
Proof.
  intros [|f] s el skip k mn mx pos p v H; [discriminate H|].
  destruct (rep_run_fuel f s el skip k mn mx pos) as [E|(items & p' & _ & _ & E)]; rewrite E in H; [discriminate H|].
  apply rep_result_ok in H. destruct H as (_ & _ & ->). eauto.
Qed.

Theorem rep_bounds : forall f s el skip k mn mx pos p items,
  wf_snode (SRep el skip k mn mx) = true ->
  sparse f s (SRep el skip k mn mx) pos = SOk (p, VRep items) ->
  mn <= length items /\
  (forall m, mx = Some m -> length items <= m) /\
  Forall (fun it => length (fst it) = k) items /\
  (forall it its, items = it :: its -> fst it = repeat (default_val skip) k).
Proof.
  intros [|f] s el skip k mn mx pos p items _ H; [discriminate H|].
  destruct (rep_run_fuel f s el skip k mn mx pos) as [E|(items' & p' & Hu & Hle & E)]; rewrite E in H; [discriminate H|].
  apply rep_result_ok in H. destruct H as (Hge & _ & [= ->]).
  split; [exact Hge|]. split; [exact Hle|]. split.
  - eapply units_from_lengths; exact Hu.
  - intros it its ->. eapply units_from_first; exact Hu.
Qed.

Theorem seq_ok_iff_fuel : forall f s els skip k pos p v,
  sparse (S f) s (SSeq els skip k) pos = SOk (p, v) <->
  exists items, v = VSeq items /\ seq_from (Mf f s) (MNf f s) skip k 0 els pos items p.
Proof. intros f s els skip k pos p v. exact (pseq_ok (sparse f s) (sparse_nf f s) skip k els 0 pos [] p v). Qed.

Theorem seq_failed_iff_fuel : forall f s els skip k pos,
  wf_snode (SSeq els skip k) = true ->
  (sparse (S f) s (SSeq els skip k) pos = SFailed <->
   seq_fails (Mf f s) (MNf f s) (Ff f s) skip k 0 els pos).
Proof.
  intros f s els skip k pos Hwf. apply wf_SSeq in Hwf.
  exact (pseq_failed (sparse f s) (sparse_nf f s) skip k (skip_ok_nf skip (proj2 Hwf) f s) els 0 pos []).
Qed.

(* the fuel-free reading: "matches" = some run returns SOk, "fails" = some run returns SFailed *)
Definition smatch (s : list byte) : snode -> nat -> nat -> sval -> Prop :=
  fun n pos p v => exists f, sparse f s n pos = SOk (p, v).
Definition smatch_nf (s : list byte) : snode -> nat -> nat -> sval -> Prop :=
  fun n pos p v => exists f, sparse_nf f s n pos = SOk (p, v).
Definition sfails (s : list byte) : snode -> nat -> Prop :=
  fun n pos => exists f, sparse f s n pos = SFailed.

Theorem smatch_fun : forall s n pos p v p' v',
  smatch s n pos p v -> smatch s n pos p' v' -> p = p' /\ v = v'.
Proof.
  intros s n pos p v p' v' [f1 H1] [f2 H2].
  assert (E := run_det SFuel (fun f => sparse f s n pos) (fun f f' => sparse_mono f f' s n pos) f1 f2).
  cbv beta in E. rewrite H1, H2 in E.
  injection E as -> ->; [auto|discriminate..].
Qed.

Theorem smatch_nf_fun : forall s n pos p v p' v',
  smatch_nf s n pos p v -> smatch_nf s n pos p' v' -> p = p' /\ v = v'.
Proof.
  intros s n pos p v p' v' [f1 H1] [f2 H2].
  assert (E := run_det SFuel (fun f => sparse_nf f s n pos) (fun f f' => sparse_nf_mono f f' s n pos) f1 f2).
  cbv beta in E. rewrite H1, H2 in E.
  injection E as -> ->; [auto|discriminate..].
Qed.

Theorem smatch_not_sfails : forall s n pos p v, smatch s n pos p v -> sfails s n pos -> False.
Proof.
  intros s n pos p v [f1 H1] [f2 H2].
  assert (E := run_det SFuel (fun f => sparse f s n pos) (fun f f' => sparse_mono f f' s n pos) f1 f2).
  cbv beta in E. rewrite H1, H2 in E.
  discriminate E; discriminate.
Qed.

Lemma Mf_smatch f s n pos p v : Mf f s n pos p v -> smatch s n pos p v.
Proof. intro H. exists f. exact H. Qed.
Lemma MNf_smatch f s n pos p v : MNf f s n pos p v -> smatch_nf s n pos p v.
Proof. intro H. exists f. exact H. Qed.
Lemma Ff_sfails f s n pos : Ff f s n pos -> sfails s n pos.
Proof. intro H. exists f. exact H. Qed.

Lemma rep_spec f s el skip k mn mx pos : wf_snode (SRep el skip k mn mx) = true ->
  sparse f s (SRep el skip k mn mx) pos = SFuel \/
  exists items p, max_chain (smatch s) (smatch_nf s) (sfails s) skip k el mx 0 pos items p /\
    sparse f s (SRep el skip k mn mx) pos = rep_result mn (length items) p items.
Proof.
  intro Hwf. destruct f as [|f]; [left; reflexivity|].
  destruct (rep_spec_fuel f s el skip k mn mx pos Hwf) as [E|(items & p & Hc & E)]; [left; exact E|right].
  exists items, p. split; [|exact E].
  exact (max_chain_impl _ _ _ _ _ _ skip k (Mf_smatch f s) (MNf_smatch f s) (Ff_sfails f s) el mx 0 pos items p Hc).
Qed.

Theorem seq_units : forall f s els skip k pos p v,
  sparse f s (SSeq els skip k) pos = SOk (p, v) ->
  exists items, v = VSeq items /\
    seq_from (smatch s) (smatch_nf s) skip k 0 els pos items p /\
    length items = length els /\
    Forall (fun it => length (fst it) = k) items /\
    (forall it its, items = it :: its -> fst it = repeat (default_val skip) k).
Proof.
  intros [|f] s els skip k pos p v H; [discriminate H|].
  apply seq_ok_iff_fuel in H. destruct H as (items & -> & Hs). exists items.
  split; [reflexivity|]. split; [|split; [|split]].
  - exact (seq_from_impl _ _ _ _ skip k (Mf_smatch f s) (MNf_smatch f s) 0 els pos items p Hs).
  - eapply seq_from_length; exact Hs.
  - eapply seq_from_lengths; exact Hs.
  - intros it its ->. eapply seq_from_first; exact Hs.
Qed.

Section ChainAt.
  Variables (M MN : snode -> nat -> nat -> sval -> Prop) (F : snode -> nat -> Prop).
  Variables (Mx MNx : nat -> snode -> nat -> nat -> sval -> Prop) (Fx : nat -> snode -> nat -> Prop).
  Variables (skip : snode) (k : nat).
  Hypothesis HM : forall n pos p v, M n pos p v -> eventually (fun f => Mx f n pos p v).
  Hypothesis HMN : forall n pos p v, MN n pos p v -> eventually (fun f => MNx f n pos p v).
  Hypothesis HF : forall n pos, F n pos -> eventually (fun f => Fx f n pos).

  Lemma skips_run_at j pos vs p :
    skips_run MN skip j pos vs p -> eventually (fun f => skips_run (MNx f) skip j pos vs p).
  Proof.
    induction 1 as [pos|j pos p1 v vs p2 H1 _ IH]; [apply ev_all; intros; constructor|].
    apply (ev_imp _ _ (ev_and _ _ (HMN _ _ _ _ H1) IH)). intros f [? ?]. econstructor; eassumption.
  Qed.

  Lemma unit_at_at el i pos it p :
    unit_at M MN skip k el i pos it p -> eventually (fun f => unit_at (Mx f) (MNx f) skip k el i pos it p).
  Proof.
    destruct 1 as [pos p v H|i pos sk p1 v p Hs H].
    - apply (ev_imp _ _ (HM _ _ _ _ H)). intros. constructor. assumption.
    - apply (ev_imp _ _ (ev_and _ _ (skips_run_at _ _ _ _ Hs) (HM _ _ _ _ H))). intros f [? ?].
      econstructor; eassumption.
  Qed.

  Lemma unit_fails_at el i pos :
    unit_fails MN F skip k el i pos -> eventually (fun f => unit_fails (MNx f) (Fx f) skip k el i pos).
  Proof.
    destruct 1 as [pos H|i pos sk p1 Hs H].
    - apply (ev_imp _ _ (HF _ _ H)). intros. constructor. assumption.
    - apply (ev_imp _ _ (ev_and _ _ (skips_run_at _ _ _ _ Hs) (HF _ _ H))). intros f [? ?]. econstructor; eassumption.
  Qed.

  Lemma units_from_at el i pos its p :
    units_from M MN skip k el i pos its p -> eventually (fun f => units_from (Mx f) (MNx f) skip k el i pos its p).
  Proof.
    induction 1 as [i pos|i pos it p1 its p Hu _ IH]; [apply ev_all; intros; constructor|].
    apply (ev_imp _ _ (ev_and _ _ (unit_at_at _ _ _ _ _ Hu) IH)). intros f [? ?]. econstructor; eassumption.
  Qed.

  Lemma max_chain_at el mx i pos its p :
    max_chain M MN F skip k el mx i pos its p ->
    eventually (fun f => max_chain (Mx f) (MNx f) (Fx f) skip k el mx i pos its p).
  Proof.
    intros (Hu & Hle & [Hs|Hs]); apply units_from_at in Hu.
    - apply (ev_imp _ _ Hu). intros f Hu'. exact (conj Hu' (conj Hle (or_introl Hs))).
    - apply (ev_imp _ _ (ev_and _ _ Hu (unit_fails_at _ _ _ Hs))). intros f [Hu' Hs'].
      exact (conj Hu' (conj Hle (or_intror Hs'))).
  Qed.

  Lemma seq_from_at i els pos its p :
    seq_from M MN skip k i els pos its p -> eventually (fun f => seq_from (Mx f) (MNx f) skip k i els pos its p).
  Proof.
    induction 1 as [i pos|i e els pos it p1 its p Hu _ IH]; [apply ev_all; intros; constructor|].
    apply (ev_imp _ _ (ev_and _ _ (unit_at_at _ _ _ _ _ Hu) IH)). intros f [? ?]. econstructor; eassumption.
  Qed.

  Lemma seq_fails_at i els pos :
    seq_fails M MN F skip k i els pos -> eventually (fun f => seq_fails (Mx f) (MNx f) (Fx f) skip k i els pos).
  Proof.
    intros (els1 & e & els2 & its & p1 & H1 & Hs & Hf).
    apply (ev_imp _ _ (ev_and _ _ (seq_from_at _ _ _ _ _ Hs) (unit_fails_at _ _ _ Hf))). intros f [Hs' Hf'].
    exists els1, e, els2, its, p1. auto.
  Qed.
End ChainAt.

Lemma smatch_at s n pos p v : smatch s n pos p v -> eventually (fun f => Mf f s n pos p v).
Proof.
  intros [f0 H]. exists f0.
  exact (run_stable SFuel (fun f => sparse f s n pos) (fun f f' => sparse_mono f f' s n pos) f0 _ H ltac:(discriminate)).
Qed.

Lemma smatch_nf_at s n pos p v : smatch_nf s n pos p v -> eventually (fun f => MNf f s n pos p v).
Proof.
  intros [f0 H]. exists f0.
  exact (run_stable SFuel (fun f => sparse_nf f s n pos) (fun f f' => sparse_nf_mono f f' s n pos) f0 _ H
           ltac:(discriminate)).
Qed.

Lemma sfails_at s n pos : sfails s n pos -> eventually (fun f => Ff f s n pos).
Proof.
  intros [f0 H]. exists f0.
  exact (run_stable SFuel (fun f => sparse f s n pos) (fun f f' => sparse_mono f f' s n pos) f0 _ H ltac:(discriminate)).
Qed.

Theorem rep_spec_complete s el skip k mn mx pos items p :
  max_chain (smatch s) (smatch_nf s) (sfails s) skip k el mx 0 pos items p ->
  exists f, sparse f s (SRep el skip k mn mx) pos = rep_result mn (length items) p items.
Proof.
  intro Hc. apply (max_chain_at _ _ _ _ _ _ skip k (smatch_at s) (smatch_nf_at s) (sfails_at s)) in Hc.
  destruct Hc as [f0 Hc]. exists (S (length items + S f0)).
  apply (prep_complete (sparse _ s) (sparse_nf _ s) skip k el mn mx pos items p f0), Hc. lia.
Qed.

Theorem rep_match_iff : forall s el skip k mn mx pos p items,
  wf_snode (SRep el skip k mn mx) = true ->
  (smatch s (SRep el skip k mn mx) pos p (VRep items) <->
   units_from (smatch s) (smatch_nf s) skip k el 0 pos items p /\
   mn <= length items /\
   (forall m, mx = Some m -> length items <= m) /\
   (mx = Some (length items) \/ unit_fails (smatch_nf s) (sfails s) skip k el (length items) p)).
Proof.
  intros s el skip k mn mx pos p items Hwf. split.
  - intros [f H]. destruct (rep_spec f s el skip k mn mx pos Hwf) as [E|(items' & p' & (Hu & Hle & Hs) & E)];
      rewrite E in H; [discriminate H|].
    apply rep_result_ok in H. destruct H as (Hge & -> & [= ->]). auto.
  - intros (Hu & Hge & Hle & Hs).
    destruct (rep_spec_complete s el skip k mn mx pos items p (conj Hu (conj Hle Hs))) as [f H].
    exists f. rewrite H. apply rep_result_ok. auto.
Qed.

Theorem rep_fails_iff : forall s el skip k mn mx pos,
  wf_snode (SRep el skip k mn mx) = true ->
  (sfails s (SRep el skip k mn mx) pos <->
   exists items p,
     units_from (smatch s) (smatch_nf s) skip k el 0 pos items p /\
     length items < mn /\
     (forall m, mx = Some m -> length items <= m) /\
     (mx = Some (length items) \/ unit_fails (smatch_nf s) (sfails s) skip k el (length items) p)).
Proof.
  intros s el skip k mn mx pos Hwf. split.
  - intros [f H]. destruct (rep_spec f s el skip k mn mx pos Hwf) as [E|(items & p & (Hu & Hle & Hs) & E)];
      rewrite E in H; [discriminate H|].
    apply rep_result_failed in H. exists items, p. auto.
  - intros (items & p & Hu & Hlt & Hle & Hs).
    destruct (rep_spec_complete s el skip k mn mx pos items p (conj Hu (conj Hle Hs))) as [f H].
    exists f. rewrite H. apply rep_result_failed, Hlt.
Qed.

Theorem seq_match_iff : forall s els skip k pos p v,
  smatch s (SSeq els skip k) pos p v <->
  exists items, v = VSeq items /\ seq_from (smatch s) (smatch_nf s) skip k 0 els pos items p.
Proof.
  intros s els skip k pos p v. split.
  - intros [f H]. apply seq_units in H. destruct H as (items & Hv & Hs & _). eauto.
  - intros (items & -> & Hs).
    apply (seq_from_at _ _ _ _ skip k (smatch_at s) (smatch_nf_at s)) in Hs. destruct Hs as [f0 Hs].
    exists (S f0). apply seq_ok_iff_fuel. exists items. split; [reflexivity|]. apply Hs, le_n.
Qed.

Theorem seq_fails_iff : forall s els skip k pos,
  wf_snode (SSeq els skip k) = true ->
  (sfails s (SSeq els skip k) pos <-> seq_fails (smatch s) (smatch_nf s) (sfails s) skip k 0 els pos).
Proof.
  intros s els skip k pos Hwf. split.
  - intros [[|f] H]; [discriminate H|]. apply seq_failed_iff_fuel in H; [|exact Hwf].
    exact (seq_fails_impl _ _ _ _ _ _ skip k (Mf_smatch f s) (MNf_smatch f s) (Ff_sfails f s) 0 els pos H).
  - intro H. apply (seq_fails_at _ _ _ _ _ _ skip k (smatch_at s) (smatch_nf_at s) (sfails_at s)) in H.
    destruct H as [f0 H]. exists (S f0). apply seq_failed_iff_fuel; [exact Hwf|apply H, le_n].
Qed.

(* examples: the inputs on which the seeded change C19-B3 (/verif/seeded/C19-B3) shows *)

Definition blank : snode := SRep (SStr [32%N]) SEmpty 0 0 (Some 1).     (* " "? *)
Definition a_ : snode := SStr [97%N].                                    (* "a" *)

Definition sp : byte := 32%N.
Definition ca : byte := 97%N.
Definition in_a__a_a : list byte := [ca; sp; sp; ca; sp; ca].                     (* "a  a a" *)
Definition in_a___a : list byte := [ca; sp; sp; sp; ca].                          (* "a   a" *)
Definition in_a__a : list byte := [ca; sp; sp; ca].                               (* "a  a" *)
Definition in_a_a__aa : list byte := [ca; sp; ca; sp; sp; ca; ca].                (* "a a  aa" *)
Definition in_a__a__a__a : list byte := [ca; sp; sp; ca; sp; sp; ca; sp; sp; ca]. (* "a  a  a  a" *)

(* the values of the skip node: it matched one blank / nothing; the default *)
Definition b1 : sval := VRep [([], VStr)].
Definition b0 : sval := VRep [].

Example ex_wf : wf_snode (SRep a_ blank 2 0 None) = true /\ skip_ok blank = true /\
                wf_snode (SSeq [a_; a_] blank 2) = true.
Proof. vm_compute. auto. Qed.

Example ex_default : default_val blank = b0.
Proof. reflexivity. Qed.

(* "a  a a", SKIP = 2, MIN = 0: three items, offset 6; the third item used one of its two skips *)
Example ex1_parse :
  sparse 50 in_a__a_a (SRep a_ blank 2 0 None) 0
  = SOk (6, VRep [([b0; b0], VStr); ([b1; b1], VStr); ([b1; b0], VStr)]).
Proof. vm_compute. reflexivity. Qed.

Example ex1_check : scheck 50 in_a__a_a (SRep a_ blank 2 0 None) 0 = SOk 6.
Proof. vm_compute. reflexivity. Qed.

(* "a   a": three blanks cannot be skipped by two " "? : one item, offset 1 -- the two blanks matched
   for the failing second unit are given back *)
Example ex2_parse :
  sparse 50 in_a___a (SRep a_ blank 2 0 None) 0 = SOk (1, VRep [([b0; b0], VStr)]).
Proof. vm_compute. reflexivity. Qed.

Example ex2_check : scheck 50 in_a___a (SRep a_ blank 2 0 None) 0 = SOk 1.
Proof. vm_compute. reflexivity. Qed.

(* MIN = 2 on "a  a": offset 4 *)
Example ex3_parse :
  sparse 50 in_a__a (SRep a_ blank 2 2 None) 0
  = SOk (4, VRep [([b0; b0], VStr); ([b1; b1], VStr)]).
Proof. vm_compute. reflexivity. Qed.

Example ex3_check : scheck 50 in_a__a (SRep a_ blank 2 2 None) 0 = SOk 4.
Proof. vm_compute. reflexivity. Qed.

(* MIN = 3 on "a  a" fails: only two units match *)
Example ex3_fail :
  sparse 50 in_a__a (SRep a_ blank 2 3 None) 0 = SFailed /\
  scheck 50 in_a__a (SRep a_ blank 2 3 None) 0 = SFailed.
Proof. vm_compute. auto. Qed.

(* MIN = MAX = 3 on "a a  aa": stops at MAX although a fourth "a" follows: offset 6 *)
Example ex4_parse :
  sparse 50 in_a_a__aa (SRep a_ blank 2 3 (Some 3)) 0
  = SOk (6, VRep [([b0; b0], VStr); ([b1; b0], VStr); ([b1; b1], VStr)]).
Proof. vm_compute. reflexivity. Qed.

Example ex4_check : scheck 50 in_a_a__aa (SRep a_ blank 2 3 (Some 3)) 0 = SOk 6.
Proof. vm_compute. reflexivity. Qed.

(* MIN = 1, MAX = 3 on "a  a  a  a": three items, offset 7 *)
Example ex5_parse :
  sparse 50 in_a__a__a__a (SRep a_ blank 2 1 (Some 3)) 0
  = SOk (7, VRep [([b0; b0], VStr); ([b1; b1], VStr); ([b1; b1], VStr)]).
Proof. vm_compute. reflexivity. Qed.

Example ex5_check : scheck 50 in_a__a__a__a (SRep a_ blank 2 1 (Some 3)) 0 = SOk 7.
Proof. vm_compute. reflexivity. Qed.

(* MIN = 3 > MAX = 2 *)
Example ex6_min_above_max :
  sparse 50 in_a__a__a__a (SRep a_ blank 2 3 (Some 2)) 0 = SFailed /\
  scheck 50 in_a__a__a__a (SRep a_ blank 2 3 (Some 2)) 0 = SFailed.
Proof. vm_compute. auto. Qed.

(* sequences: `a ~ a` with SKIP = 2 *)
Example ex7_seq :
  sparse 50 in_a__a (SSeq [a_; a_] blank 2) 0 = SOk (4, VSeq [([b0; b0], VStr); ([b1; b1], VStr)]) /\
  scheck 50 in_a__a (SSeq [a_; a_] blank 2) 0 = SOk 4 /\
  sparse 50 in_a___a (SSeq [a_; a_] blank 2) 0 = SFailed /\
  scheck 50 in_a___a (SSeq [a_; a_] blank 2) 0 = SFailed.
Proof. vm_compute. auto. Qed.

(* a skip node that is itself a repetition with a skip count: `(" "?){0,}` can loop on the empty match,
   which is what the fuel is for *)
Example ex8_fuel :
  sparse 50 in_a__a (SRep a_ (SRep blank SEmpty 0 0 None) 1 0 None) 0 = SFuel /\
  scheck 50 in_a__a (SRep a_ (SRep blank SEmpty 0 0 None) 1 0 None) 0 = SFuel.
Proof. vm_compute. auto. Qed.

(* the seeded variant: the check path matches Skip ONCE instead of SKIP times *)

Section COnce.
  Variable s : list byte.
  Variable C : snode -> nat -> sres nat.
  Variable CN : snode -> nat -> sres nat.
  Variable lf : nat.

  (* `if i > 0 { input = Skip::check_with(input); }`  -- no `for _ in 0..SKIP` *)
  Definition cskips_once (skip : snode) (i pos : nat) : sres nat :=
    if (0 <? i)%nat then CN skip pos else SOk pos.

  Definition cunit_once (el skip : snode) (i pos : nat) : sres nat :=
    match cskips_once skip i pos with
    | SOk p1 => C el p1
    | SFailed => SFailed
    | SFuel => SFuel
    end.

  Fixpoint crep_once (n : nat) (el skip : snode) (mn : nat) (mx : option nat) (i pos count : nat) : sres nat :=
    if below i mx then
      match n with
      | O => SFuel
      | S n' =>
          match cunit_once el skip i pos with
          | SOk p => crep_once n' el skip mn mx (S i) p (S count)
          | SFailed => if (i <? mn)%nat then SFailed else cfin mn mx pos count
          | SFuel => SFuel
          end
      end
    else cfin mn mx pos count.

  Fixpoint crep_nf_once (n : nat) (el skip : snode) (mx : option nat) (i pos : nat) : sres nat :=
    if below i mx then
      match n with
      | O => SFuel
      | S n' =>
          match cunit_once el skip i pos with
          | SOk p => crep_nf_once n' el skip mx (S i) p
          | SFailed => SOk pos
          | SFuel => SFuel
          end
      end
    else SOk pos.

  Definition sc_step_once (n : snode) (pos : nat) : sres nat :=
    match n with
    | SRep el skip k mn mx => crep_once lf el skip mn mx 0 pos 0
    | _ => sc_step s C CN lf n pos
    end.

  Definition scnf_step_once (n : snode) (pos : nat) : sres nat :=
    match n with
    | SEmpty => SOk pos
    | SRep el skip k O mx => crep_nf_once lf el skip mx 0 pos
    | _ => SFailed
    end.
End COnce.

Fixpoint scheck_once (fuel : nat) (s : list byte) (n : snode) (pos : nat) {struct fuel} : sres nat :=
  match fuel with
  | O => SFuel
  | S f => sc_step_once s (scheck_once f s) (scheck_nf_once f s) f n pos
  end
with scheck_nf_once (fuel : nat) (s : list byte) (n : snode) (pos : nat) {struct fuel} : sres nat :=
  match fuel with
  | O => SFuel
  | S f => scnf_step_once (scheck_once f s) (scheck_nf_once f s) f n pos
  end.

(* on "a  a a" the variant stops after the first "a": one " "? cannot bridge two blanks *)
Example once_differs :
  scheck_once 50 in_a__a_a (SRep a_ blank 2 0 None) 0 = SOk 1 /\
  scheck 50 in_a__a_a (SRep a_ blank 2 0 None) 0 = SOk 6 /\
  pos_of (sparse 50 in_a__a_a (SRep a_ blank 2 0 None) 0) = SOk 6.
Proof. vm_compute. auto. Qed.

(* so the variant does not satisfy check_is_parse *)
Theorem scheck_once_refuted :
  exists f s n pos, wf_snode n = true /\ scheck_once f s n pos <> pos_of (sparse f s n pos).
Proof.
  exists 50, in_a__a_a, (SRep a_ blank 2 0 None), 0. split; [reflexivity|].
  vm_compute. discriminate.
Qed.

(* with SKIP = 1 the variant is harmless on the same input (why the generated code did not notice) *)
Example once_same_for_one :
  scheck_once 50 in_a__a_a (SRep a_ blank 1 0 None) 0 = scheck 50 in_a__a_a (SRep a_ blank 1 0 None) 0.
Proof. vm_compute. reflexivity. Qed.
