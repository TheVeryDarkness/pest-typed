(* C07: where the interpreter evaluates the implicit skip, and token facts for C02. *)
From Coq Require Import List.
From PT Require Import Model.Base Model.Texpr Model.Sem Model.Tok Model.Tokens.
Import ListNotations.

(* no skipping in front of the first element of a sequence / iteration 0 of a repetition: the cursor and the
   state are untouched, the `skipped` array holds a default value (SKIP = 1) or is empty (SKIP = 0) *)
Lemma no_skip_at_start E P lf b pos st :
  pre_skip_p E P lf b false pos st = Ok (pos, if b then [skip_default E] else []) st.
Proof. unfold pre_skip_p. destruct b; reflexivity. Qed.

(* no skipping at all where the SKIP argument resolves to 0 (atomic / compound-atomic context) *)
Lemma no_skip_when_off E P lf doit pos st :
  pre_skip_p E P lf false doit pos st = Ok (pos, []) st.
Proof. reflexivity. Qed.

Lemma no_skip_when_off_check E C lf pos st : pre_skip_c E C lf false pos st = Ok pos st.
Proof. reflexivity. Qed.

(* where skipping is on and it is not the first element, exactly the grammar's skip type is run *)
Lemma skip_when_on E P lf pos st :
  pre_skip_p E P lf true true pos st =
  match skip_p E P lf pos st with
  | Ok (pos', t) st' => Ok (pos', [t]) st'
  | Fail st' => Fail st'
  | Panic => Panic
  | Fuel => Fuel
  end.
Proof. reflexivity. Qed.

(* a rule struct adds nothing around its body: the body starts at the rule's own start (no skip at rule edges) *)
Lemma rule_body_starts_at_rule_start E fuel inh r arg pos st p t st' :
  tparse E (S fuel) inh (TRule r arg) pos st = Ok (p, t) st' ->
  match t with
  | NRule r' _ (Some (s, e)) => r' = r /\ s = pos /\ e = p
  | NRule r' _ None => r' = r /\ r_emis (e_rules E r) = EmExpr
  | _ => False
  end.
Proof.
  cbn [tparse step_p]. destruct (r_emis (e_rules E r)) eqn:Hem.
  - destruct (tcheck E fuel (resolve arg inh) (r_body (e_rules E r)) pos (ev (EEnter r pos) st)) as [p' s'|s'| |]; try discriminate.
    unfold i_span. destruct (slice_opt (parent (e_inp E)) pos p'); cbn [lift]; [|discriminate].
    intros H; inversion H; subst. repeat split.
  - destruct (tparse E fuel (resolve arg inh) (r_body (e_rules E r)) pos st) as [[p' t'] s'|s'| |]; try discriminate.
    intros H; inversion H; subst. split; reflexivity.
  - destruct (tparse E fuel (resolve arg inh) (r_body (e_rules E r)) pos (ev (EEnter r pos) st)) as [[p' t'] s'|s'| |]; try discriminate.
    unfold i_span. destruct (slice_opt (parent (e_inp E)) pos p'); cbn [lift]; [|discriminate].
    intros H; inversion H; subst. repeat split.
Qed.

Lemma lookahead_no_tokens E t : tokens E (NPos t) = [] /\ tokens E NNeg = [].
Proof. split; reflexivity. Qed.

Lemma skip_default_tokens E : tokens E (skip_default E) = [].
Proof. unfold skip_default. destruct (e_skip E); reflexivity. Qed.

Lemma silent_transparent E r c :
  r_emis (e_rules E r) = EmExpr -> tokens E (NRule r (Some c) None) = tokens E c.
Proof. intros H. cbn [tokens]. rewrite H. reflexivity. Qed.

Lemma atomic_rules_have_no_children E r c s e :
  r_emis (e_rules E r) <> EmExpr -> r_atom (e_rules E r) = Some true ->
  tokens E (NRule r c (Some (s, e))) = [Tok r s e []].
Proof.
  intros He Ha. cbn [tokens]. unfold has_children. rewrite Ha.
  destruct (r_emis (e_rules E r)); [reflexivity|congruence|reflexivity].
Qed.

Lemma rule_token E r c s e :
  r_emis (e_rules E r) <> EmExpr -> r_atom (e_rules E r) <> Some true ->
  tokens E (NRule r (Some c) (Some (s, e))) = [Tok r s e (tokens E c)].
Proof.
  intros He Ha. cbn [tokens]. unfold has_children.
  destruct (r_atom (e_rules E r)) as [[|]|]; try congruence;
    destruct (r_emis (e_rules E r)); try congruence; reflexivity.
Qed.

Lemma skipped_before_matched E sk m rest :
  tokens E (NSeq ((sk, m) :: rest)) = flat_map (tokens E) sk ++ tokens E m ++ tokens E (NSeq rest).
Proof. cbn [tokens flat_map fst snd]. rewrite <- app_assoc. reflexivity. Qed.
