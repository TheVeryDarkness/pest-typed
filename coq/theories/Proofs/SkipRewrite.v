(* C20, pest_optimizer: the optimizer's skip-until node `Skip([t1; ...; tn])` (TSkipUntil) and the
   expression it replaces, `(!(t1 | ... | tn) ~ ANY)*`, agree on the real parse path (tparse) and on the
   real check path (tcheck): same offset, same logical stack, neither fails or panics; the offset is the
   first character boundary at which a terminator is a prefix of the rest of the input (or the end).
   The tracker trace differs and the difference is stated exactly. *)
From Coq Require Import List NArith Arith Bool Lia.
From PT Require Import Model.Base Model.Stack Model.Texpr Model.Sem.
From PT Require Import Model.LinesSpec.
From PT Require Import Proofs.ListFacts Proofs.BaseFacts Proofs.LinesUtf8 Proofs.BoundaryOps Proofs.CheckParse.
Import ListNotations.

(* the operand of the negative predicate: a choice of the terminators, or the single terminator *)
Definition operand_of (ss : list (list byte)) (X : texpr) : Prop :=
  X = TChoice (map TStr ss) \/ exists t, ss = [t] /\ X = TStr t.

(* what the generator emits for n terminators *)
Definition su_operand (ss : list (list byte)) : texpr :=
  match ss with [t] => TStr t | _ => TChoice (map TStr ss) end.

Definition su_body (X : texpr) : texpr := TSeq SkOff [TNeg X; TAny].
Definition su_expansion (X : texpr) : texpr := TRep SkOff 0 None (su_body X).

Lemma su_operand_ok ss : operand_of ss (su_operand ss).
Proof.
  destruct ss as [|t [|u r]]; cbn [su_operand]; [left; reflexivity| |left; reflexivity].
  right. exists t. split; reflexivity.
Qed.

Section First.
  Variables (Q : nat -> Prop) (e : nat).

  (* [p] is the first position from [pos] on at which [Q] holds, or [e] if there is none *)
  Definition first_at (pos p : nat) : Prop :=
    pos <= p <= e /\ (forall q, pos <= q < p -> ~ Q q) /\ (Q p \/ p = e).

  Lemma first_at_unique pos p p' : first_at pos p -> first_at pos p' -> p = p'.
  Proof.
    intros (Hr & Hb & He) (Hr' & Hb' & He').
    destruct (Nat.lt_trichotomy p p') as [Hlt|[Heq|Hgt]]; [|exact Heq|].
    - destruct He as [He|He]; [|lia]. destruct (Hb' p); [lia|exact He].
    - destruct He' as [He'|He']; [|lia]. destruct (Hb p'); [lia|exact He'].
  Qed.

  Lemma first_at_here pos : pos <= e -> Q pos \/ pos = e -> first_at pos pos.
  Proof. intros Hle H. split; [lia|]. split; [intros q Hq; lia|exact H]. Qed.

  Lemma first_at_later pos pos' p :
    pos <= pos' -> (forall q, pos <= q < pos' -> ~ Q q) -> first_at pos' p -> first_at pos p.
  Proof.
    intros Hle Hno (Hr & Hb & He). split; [lia|]. split; [|exact He].
    intros q Hq. destruct (Nat.lt_ge_cases q pos') as [Hlt|Hge]; [apply Hno|apply Hb]; lia.
  Qed.
End First.

(* the text from offset [q] to end() *)
Definition rest_at (I : inp) (q : nat) : list byte := firstn (i_end I - q) (skipn q (parent I)).

(* a terminator starts at the character boundary [q] *)
Definition term_at (I : inp) (ss : list (list byte)) (q : nat) : Prop :=
  is_boundary (parent I) q = true /\ q <= i_end I /\
  exists s, In s ss /\ is_prefix s (rest_at I q) = true.

(* [p] is the first character boundary >= pos where a terminator starts, or end() if there is none *)
Definition su_spec (I : inp) (ss : list (list byte)) (pos p : nat) : Prop :=
  pos <= p <= i_end I /\ is_boundary (parent I) p = true /\
  (forall q, pos <= q < p -> ~ term_at I ss q) /\
  (term_at I ss p \/ p = i_end I).

Lemma su_spec_unique I ss pos p p' : su_spec I ss pos p -> su_spec I ss pos p' -> p = p'.
Proof.
  intros (Hr & _ & Hb & He) (Hr' & _ & Hb' & He').
  exact (first_at_unique (term_at I ss) (i_end I) pos p p' (conj Hr (conj Hb He)) (conj Hr' (conj Hb' He'))).
Qed.

Definition mkres {A} (o : option A) (s : state) : res A :=
  match o with Some a => Ok a s | None => Fail s end.

(* the events of k evaluations of the negative predicate, newest first *)
Fixpoint neg_tr (k : nat) (t : list event) : list event :=
  match k with O => t | S k' => EPolEnd :: EPol false :: neg_tr k' t end.

Lemma neg_tr_shift k t : neg_tr k (neg_tr 1 t) = neg_tr (S k) t.
Proof. induction k as [|k IH]; [reflexivity|]. cbn [neg_tr] in *. rewrite IH. reflexivity. Qed.

(* the physical stack a failing restore_on_none leaves *)
Definition ron_fail_stk (E : env) (s : stack) : stack :=
  if e_ron_fixed E then s_push_all (cache s) (s_pop_all s) else s.

Lemma with_stk_id st : with_stk (stk st) st = st.
Proof. destruct st; reflexivity. Qed.

Lemma with_stk_twice s s' st : with_stk s (with_stk s' st) = with_stk s st.
Proof. reflexivity. Qed.

Lemma stack_eta s : mk_stack (cache s) (popped s) (lengths s) = s.
Proof. destruct s; reflexivity. Qed.

Lemma restore_snapshot s : s_restore (s_snapshot s) = MOk s.
Proof.
  unfold s_restore, s_snapshot, s_len. cbn [lengths cache popped].
  rewrite Nat.ltb_irrefl. rewrite stack_eta. reflexivity.
Qed.

Lemma clear_snapshot s : s_clear_snapshot (s_snapshot s) = MOk s.
Proof.
  unfold s_clear_snapshot, s_snapshot, s_len. cbn [lengths cache popped].
  rewrite Nat.leb_refl, Nat.sub_diag. cbn [Nat.leb andb skipn]. rewrite stack_eta. reflexivity.
Qed.

Lemma push_list l : forall c pp L,
  fold_left (fun acc x => s_push x acc) l (mk_stack c pp L) = mk_stack (rev l ++ c) pp L.
Proof.
  induction l as [|x l IH]; intros c pp L; [reflexivity|].
  cbn [fold_left]. unfold s_push at 2. cbn [cache popped lengths]. rewrite IH.
  cbn [rev]. rewrite <- app_assoc. reflexivity.
Qed.

Lemma push_all_empty saved pp L : s_push_all saved (mk_stack [] pp L) = mk_stack saved pp L.
Proof. unfold s_push_all. rewrite push_list, rev_involutive, app_nil_r. reflexivity. Qed.

Lemma pop_all_fuel_rec n ls : forall c pp,
  s_pop_all_fuel (length c) (mk_stack c pp ((n, length c) :: ls)) = mk_stack [] (rev c ++ pp) ((n, 0) :: ls).
Proof.
  induction c as [|x c IH]; intros pp; [reflexivity|].
  cbn [length s_pop_all_fuel]. unfold s_pop. cbn [cache popped lengths length].
  rewrite Nat.eqb_refl. replace (S (length c) - 1) with (length c) by lia.
  rewrite IH. cbn [rev]. rewrite <- app_assoc. reflexivity.
Qed.

Lemma pop_all_fuel_norec n ls : forall c pp,
  s_pop_all_fuel (length c) (mk_stack c pp ((n, 0) :: ls)) = mk_stack [] pp ((n, 0) :: ls).
Proof.
  induction c as [|x c IH]; intros pp; [reflexivity|].
  cbn [length s_pop_all_fuel]. unfold s_pop. cbn [cache popped lengths length Nat.eqb].
  apply IH.
Qed.

(* the two shapes of the stack between a snapshot of [s] and its restore, when all that happens in
   between are failing repaired restore_on_none's (none yet / at least one) *)
Definition snapB (s : stack) : stack :=
  mk_stack (cache s) (rev (cache s) ++ popped s) ((s_len s, 0) :: lengths s).

Definition in_snap (s x : stack) : Prop := x = s_snapshot s \/ x = snapB s.

Lemma in_snap_cache s x : in_snap s x -> cache x = cache s.
Proof. intros [->| ->]; reflexivity. Qed.

Lemma reinstall_in_snap s x : in_snap s x -> s_push_all (cache s) (s_pop_all x) = snapB s.
Proof.
  intros [->| ->]; unfold s_pop_all, s_snapshot, snapB, s_len; cbn [cache].
  - rewrite pop_all_fuel_rec. apply push_all_empty.
  - rewrite pop_all_fuel_norec. apply push_all_empty.
Qed.

Lemma restore_in_snap {s x} : in_snap s x -> s_restore x = MOk s.
Proof.
  intros [->| ->]; [apply restore_snapshot|].
  destruct s as [c p ls]. rewrite <- (rev_involutive c). generalize (rev c). intros r.
  unfold snapB, s_restore, s_len, keep_bottom. cbn [cache popped lengths].
  rewrite Nat.sub_0_r, skipn_all, rev_involutive, rev_length, firstn_length_app, (skipn_length_app r p).
  rewrite app_length, (proj2 (Nat.leb_le _ _) (Nat.le_add_r _ _)).
  destruct r as [|x r]; [reflexivity|]. cbn [length Nat.ltb Nat.leb]. rewrite app_nil_r. reflexivity.
Qed.

Lemma ron_fail_in_snap E s x : in_snap s x -> in_snap s (ron_fail_stk E x).
Proof.
  intros H. unfold ron_fail_stk. destruct (e_ron_fixed E); [|exact H].
  rewrite (in_snap_cache s x H). right. apply reinstall_in_snap. exact H.
Qed.

Lemma pop_all_fuel_cache n : forall s, length (cache s) = n -> cache (s_pop_all_fuel n s) = [].
Proof.
  induction n as [|n IH]; intros s Hl; cbn [s_pop_all_fuel].
  - destruct (cache s); [reflexivity|discriminate].
  - unfold s_pop. destruct (cache s) as [|x c] eqn:Hc; [discriminate|].
    cbn [length] in Hl.
    destruct (lengths s) as [|[l r] ls].
    + apply IH. cbn [cache]. lia.
    + destruct (length (x :: c) =? r); apply IH; cbn [cache]; lia.
Qed.

Lemma push_list_cache l s : cache (fold_left (fun acc x => s_push x acc) l s) = rev l ++ cache s.
Proof. destruct s as [c pp L]. rewrite push_list. reflexivity. Qed.

Lemma ron_fail_stk_cache E s : cache (ron_fail_stk E s) = cache s.
Proof.
  unfold ron_fail_stk. destruct (e_ron_fixed E); [|reflexivity].
  unfold s_push_all. rewrite push_list_cache, rev_involutive.
  unfold s_pop_all. rewrite pop_all_fuel_cache by reflexivity. apply app_nil_r.
Qed.

(* [r] is [v], unless the fuel ran out -- which happens only under the bound [Q] on the fuel *)
Definition unless_fuel {A} (Q : Prop) (r v : res A) : Prop := (Q /\ r = Fuel) \/ r = v.

Lemma out_of_fuel {A} (Q : Prop) (v : res A) : Q -> unless_fuel Q Fuel v.
Proof. intros H. left. split; [exact H|reflexivity]. Qed.

(* restore_on_none around a computation whose result does not depend on the stack *)
Lemma ron_cases {A} E (Q : Prop) (f : state -> res A) st (o : option A) t :
  (forall s, unless_fuel Q (f (with_stk s st)) (mkres o (mk_state s t))) ->
  unless_fuel Q (ron E f st)
    match o with
    | Some a => Ok a (mk_state (stk st) t)
    | None => Fail (mk_state (ron_fail_stk E (stk st)) t)
    end.
Proof.
  intros H. unfold ron, ron_fail_stk. destruct (e_ron_fixed E).
  - specialize (H (stk st)). rewrite with_stk_id in H.
    destruct H as [[HQ ->]| ->]; [apply out_of_fuel, HQ|right]. destruct o as [a|]; reflexivity.
  - destruct (H (s_snapshot (stk st))) as [[HQ ->]| ->]; [apply out_of_fuel, HQ|right].
    destruct o as [a|]; cbn [mkres stk]; [rewrite clear_snapshot|rewrite restore_snapshot]; reflexivity.
Qed.

Definition hitb (ss : list (list byte)) (rest : list byte) : bool :=
  existsb (fun s => is_prefix s rest) ss.

(* the result of checking the operand inside the predicate's snapshot of [s0]: success iff a terminator
   is a prefix of the rest; no event; the stack is still restorable to [s0]; out of fuel only under the
   bound [Q] on the fuel *)
Definition opnd_res (Q : Prop) (hit : bool) (t0 : list event) (s0 : stack) (r : res nat) : Prop :=
  match r with
  | Ok _ st' => hit = true /\ tr st' = t0 /\ in_snap s0 (stk st')
  | Fail st' => hit = false /\ tr st' = t0 /\ in_snap s0 (stk st')
  | Panic => False
  | Fuel => Q
  end.

Section Operand.
  Variable E : env.
  Variable inh : bool.
  Variable pos : nat.
  Variable rest : list byte.
  Hypothesis Hget : i_get (e_inp E) pos = MOk rest.
  Variable s0 : stack.

  Lemma str_check k t st :
    tcheck E (S k) inh (TStr t) pos st =
    if is_prefix t rest then Ok (pos + length t) st else Fail st.
  Proof.
    cbn [tcheck step_c]. unfold i_match_string. rewrite Hget. cbn [mbind leaf_check lift].
    destruct (is_prefix t rest); reflexivity.
  Qed.

  Lemma ron_str k t st : in_snap s0 (stk st) ->
    opnd_res False (is_prefix t rest) (tr st) s0 (ron E (tcheck E (S k) inh (TStr t) pos) st).
  Proof.
    intros Hi.
    destruct (ron_cases E False (tcheck E (S k) inh (TStr t) pos) st
                (if is_prefix t rest then Some (pos + length t) else None) (tr st)) as [[[] _]|H].
    - intros s. right. rewrite str_check. destruct (is_prefix t rest); reflexivity.
    - rewrite H. destruct (is_prefix t rest); cbn [opnd_res tr stk].
      + repeat split. exact Hi.
      + repeat split. apply ron_fail_in_snap. exact Hi.
  Qed.

  Lemma choice_strs k : forall ss st, in_snap s0 (stk st) ->
    opnd_res (k < 1) (hitb ss rest) (tr st) s0 (choice_c E (tcheck E k) inh (map TStr ss) pos st).
  Proof.
    destruct k as [|k].
    - intros [|t ss] st Hi; cbn [map choice_c].
      + cbn [opnd_res hitb existsb]. repeat split. exact Hi.
      + cbn [tcheck]. unfold ron. destruct (e_ron_fixed E); exact Nat.lt_0_1.
    - induction ss as [|t ss IH]; intros st Hi; cbn [map choice_c].
      + cbn [opnd_res hitb existsb]. repeat split. exact Hi.
      + pose proof (ron_str k t st Hi) as Hr.
        destruct (ron E (tcheck E (S k) inh (TStr t) pos) st) as [p st'|st'| |]; cbn [opnd_res] in Hr; try contradiction.
        * destruct Hr as (Hp & Ht & Hs). cbn [opnd_res]. unfold hitb. cbn [existsb]. rewrite Hp.
          repeat split; assumption.
        * destruct Hr as (Hp & Ht & Hs). unfold hitb in *. cbn [existsb]. rewrite Hp, <- Ht. exact (IH st' Hs).
  Qed.

  Lemma operand_check ss X k st : operand_of ss X -> in_snap s0 (stk st) ->
    opnd_res (k < 2) (hitb ss rest) (tr st) s0 (tcheck E k inh X pos st).
  Proof.
    intros [->|(t & -> & ->)] Hi; (destruct k as [|k]; [exact Nat.lt_0_2|]).
    - cbn [tcheck step_c]. pose proof (choice_strs k ss st Hi) as H.
      destruct (choice_c E (tcheck E k) inh (map TStr ss) pos st); [exact H..|].
      apply -> Nat.succ_lt_mono. exact H.
    - rewrite str_check. unfold hitb. cbn [existsb]. rewrite orb_false_r.
      destruct (is_prefix t rest); cbn [opnd_res]; repeat split; exact Hi.
  Qed.
End Operand.

Definition neg_st (st : state) : state := mk_state (stk st) (neg_tr 1 (tr st)).

Definition skip_item (x : char) : list tnode * tnode :=
  ([], NSeq [([], NNeg); ([], NChar CkAny x)]).

(* the character the body `!X ~ ANY` consumes at a cursor whose remaining text is [encode m]; None = it fails *)
Definition next_char (ss : list (list byte)) (m : list char) : option char :=
  if hitb ss (encode m) then None else match m with [] => None | x :: _ => Some x end.

(* the characters the loop consumes when the remaining text is [encode m] *)
Fixpoint skipped (ss : list (list byte)) (m : list char) : list char :=
  match m with
  | [] => []
  | x :: m' => if hitb ss (encode m) then [] else x :: skipped ss m'
  end.

Lemma skipped_length ss m : length (skipped ss m) <= length m.
Proof.
  induction m as [|x m IH]; [reflexivity|]. cbn [skipped].
  destruct (hitb ss (encode (x :: m))); cbn [length]; lia.
Qed.

Lemma skipped_prefix ss m : exists m2, m = skipped ss m ++ m2.
Proof.
  induction m as [|x m [m2 IH]]; [exists []; reflexivity|]. cbn [skipped].
  destruct (hitb ss (encode (x :: m))).
  - exists (x :: m). reflexivity.
  - exists m2. cbn [app]. rewrite <- IH. reflexivity.
Qed.

(* what one iteration returns decides how the loop goes on *)
Lemma next_char_skipped ss m :
  match next_char ss m with
  | Some x => exists m', m = x :: m' /\ skipped ss m = x :: skipped ss m'
  | None => skipped ss m = []
  end.
Proof.
  unfold next_char. destruct m as [|x m']; [destruct (hitb ss (encode [])); reflexivity|].
  cbn [skipped]. destruct (hitb ss (encode (x :: m'))); [reflexivity|]. exists m'. split; reflexivity.
Qed.

Section Iteration.
  Variable E : env.
  Variable inh : bool.
  Variable ss : list (list byte).
  Variable X : texpr.
  Hypothesis HX : operand_of ss X.
  Local Notation I := (e_inp E).

  Lemma neg_parse k pos a m b st : cur_view I pos a m b ->
    unless_fuel (k < 3) (tparse E k inh (TNeg X) pos st)
      (mkres (if hitb ss (encode m) then None else Some (pos, NNeg)) (neg_st st)).
  Proof.
    intros Hv. pose proof (view_get _ _ _ _ _ Hv) as Hget.
    destruct k as [|k]; [apply out_of_fuel; lia|].
    cbn [tparse step_p].
    set (st1 := with_stk (s_snapshot (stk st)) (ev (EPol false) st)).
    assert (Hi : in_snap (stk st) (stk st1)) by (left; reflexivity).
    pose proof (operand_check E inh pos (encode m) Hget (stk st) ss X k st1 HX Hi) as H.
    destruct (tcheck E k inh X pos st1) as [p st'|st'| |]; cbn [opnd_res] in H;
      [right|right|contradiction|apply out_of_fuel; lia].
    all: destruct H as (-> & Ht & Hs); rewrite (restore_in_snap Hs); cbn [lift mkres].
    all: unfold neg_st, ev, with_stk; cbn [stk tr neg_tr]; rewrite Ht; reflexivity.
  Qed.

  Lemma any_parse k pos a m b st : cur_view I pos a m b ->
    tparse E (S k) inh TAny pos st =
      mkres (match m with [] => None | x :: _ => Some (pos + len_utf8 x, NChar CkAny x) end) st.
  Proof.
    intros Hv. pose proof (view_get _ _ _ _ _ Hv) as Hget.
    destruct (view_valid _ _ _ _ _ Hv) as (_ & Hm & _).
    cbn [tparse step_p]. unfold i_match_char. rewrite Hget. cbn [mbind lift].
    destruct m as [|x m']; [reflexivity|].
    inversion Hm as [|? ? Hx Hm']; subst.
    rewrite encode_cons, (dec1_enc x _ Hx). reflexivity.
  Qed.

  Lemma body_parse k pos a m b st : cur_view I pos a m b ->
    unless_fuel (k < 4) (tparse E k inh (su_body X) pos st)
      (mkres (option_map (fun x => (pos + len_utf8 x, snd (skip_item x))) (next_char ss m)) (neg_st st)).
  Proof.
    intros Hv. destruct k as [|k]; [apply out_of_fuel; lia|].
    unfold su_body. cbn [tparse step_p resolve seq_p pre_skip_p negb].
    destruct (neg_parse k pos a m b st Hv) as [[Hk ->]|H]; [apply out_of_fuel; lia|right]. rewrite H.
    unfold next_char. destruct (hitb ss (encode m)); cbn [mkres]; [reflexivity|].
    destruct k as [|k]; [discriminate H|].
    rewrite (any_parse k pos a m b (neg_st st) Hv). destruct m as [|x m']; reflexivity.
  Qed.

  Lemma unit_ron n lf i pos a m b st : cur_view I pos a m b ->
    unless_fuel (n < 4) (ron E (unit_p E (tparse E n) lf false inh (su_body X) i pos) st)
      match next_char ss m with
      | Some x => Ok (pos + len_utf8 x, skip_item x) (neg_st st)
      | None => Fail (mk_state (ron_fail_stk E (stk st)) (neg_tr 1 (tr st)))
      end.
  Proof.
    intros Hv.
    destruct (ron_cases E (n < 4) (unit_p E (tparse E n) lf false inh (su_body X) i pos) st
                (option_map (fun x => (pos + len_utf8 x, skip_item x)) (next_char ss m))
                (neg_tr 1 (tr st))) as [H| ->].
    - intros s. cbn [unit_p pre_skip_p].
      destruct (body_parse n pos a m b (with_stk s st) Hv) as [[Hn ->]| ->]; [apply out_of_fuel, Hn|right].
      destruct (next_char ss m); reflexivity.
    - left. exact H.
    - right. destruct (next_char ss m); reflexivity.
  Qed.

  Lemma rep_loop n lf : forall l m a pos b st i acc, cur_view I pos a m b ->
    unless_fuel (n < 4 \/ l <= length (skipped ss m))
      (rep_p E (tparse E n) lf l false inh 0 None (su_body X) i pos st acc)
      (Ok (pos + length (encode (skipped ss m)), NRep false (rev acc ++ map skip_item (skipped ss m)))
         (mk_state (ron_fail_stk E (stk st)) (neg_tr (S (length (skipped ss m))) (tr st)))).
  Proof.
    induction l as [|l IH]; intros m a pos b st i acc Hv; [apply out_of_fuel; right; apply Nat.le_0_l|].
    cbn [rep_p below].
    destruct (unit_ron n lf i pos a m b st Hv) as [[Hn ->]| ->]; [apply out_of_fuel; left; exact Hn|].
    pose proof (next_char_skipped ss m) as Hs. destruct (next_char ss m) as [x|].
    - destruct Hs as (m' & -> & ->).
      destruct (IH m' (a ++ [x]) (pos + len_utf8 x) b (neg_st st) (S i) (skip_item x :: acc) (view_step Hv))
        as [[Hf ->]| ->].
      + apply out_of_fuel. destruct Hf as [Hf|Hf]; [left; exact Hf|right; cbn [length]; lia].
      + right. unfold neg_st. cbn [stk tr length map rev].
        rewrite encode_length_cons, <- app_assoc, Nat.add_assoc, neg_tr_shift. reflexivity.
    - right. rewrite Hs. cbn [Nat.ltb Nat.leb bounded encode flat_map length map].
      rewrite Nat.add_0_r, app_nil_r. reflexivity.
  Qed.
End Iteration.

Definition su_stop (I : inp) (ss : list (list byte)) (pos : nat) : nat := snd (i_skip_until I true ss pos).

Lemma su_hit_term_at I ss q : good_inp I -> (su_hit I true ss q = true <-> term_at I ss q).
Proof.
  intros (_ & _ & Hbe & _ & Hle). unfold su_hit, term_at, rest_at. split.
  - destruct (slice_opt (parent I) q (i_end I)) as [x|] eqn:Hs; [|discriminate].
    apply slice_opt_some in Hs as ((Hq & _ & Hb & _) & ->). intros Hx.
    exact (conj Hb (conj Hq (proj1 (existsb_exists _ _) Hx))).
  - intros (Hb & Hq & Hx). rewrite (slice_opt_intro _ _ _ Hq Hle Hb Hbe). apply existsb_exists, Hx.
Qed.

(* the scan of the node stops at the first hit *)
Lemma su_scan_first I cut ss (Q : nat -> Prop) : (forall q, su_hit I cut ss q = true <-> Q q) ->
  forall n from,
  first_at Q (from + n) from (match su_scan I cut ss from n with Some p => p | None => from + n end).
Proof.
  intros HQ n from. pose proof (su_scan_spec I cut ss n from) as H.
  destruct (su_scan I cut ss from n) as [p|]; [destruct H as (Hr & Hp & H)|]; (split; [lia|]);
    (split; [intros q Hq Hx; apply HQ in Hx; rewrite (H q Hq) in Hx; discriminate|]).
  - left. apply HQ, Hp.
  - right. reflexivity.
Qed.

Lemma su_stop_first I ss pos : good_inp I -> pos <= i_end I ->
  first_at (term_at I ss) (i_end I) pos (su_stop I ss pos).
Proof.
  intros HI Hle.
  pose proof (su_scan_first I true ss _ (fun q => su_hit_term_at I ss q HI) (i_end I - pos) pos) as H.
  rewrite (Nat.add_comm pos), (Nat.sub_add _ _ Hle) in H.
  unfold su_stop, i_skip_until. destruct (su_scan I true ss pos (i_end I - pos)); exact H.
Qed.

(* ... and so does the loop of the expansion: the two offsets are equal by [first_at_unique] *)
Lemma skipped_first I ss : good_inp I -> forall m a pos b, cur_view I pos a m b ->
  first_at (term_at I ss) (i_end I) pos (pos + length (encode (skipped ss m))).
Proof.
  intros HI. induction m as [|x m' IH]; intros a pos b Hv.
  - rewrite (view_end Hv). cbn [skipped encode flat_map length]. rewrite Nat.add_0_r.
    apply first_at_here; [apply Nat.le_refl|right; reflexivity].
  - pose proof (su_hit_term_at I ss pos HI) as Hh. rewrite (view_hit ss Hv : _ = hitb ss _) in Hh. cbn [skipped].
    destruct (hitb ss (encode (x :: m'))).
    + rewrite (view_end Hv). cbn [encode flat_map length]. rewrite Nat.add_0_r.
      apply first_at_here; [apply Nat.le_add_r|left; apply Hh; reflexivity].
    + rewrite encode_length_cons, Nat.add_assoc.
      apply (first_at_later _ _ pos (pos + len_utf8 x)); [apply Nat.le_add_r| |exact (IH _ _ _ (view_step Hv))].
      intros q Hq Ht. destruct (Nat.eq_dec q pos) as [->|Hne]; [apply Hh in Ht; discriminate|].
      destruct Ht as (Hb & _). rewrite (view_inside q Hv) in Hb by lia. discriminate.
Qed.

Definition between (I : inp) (pos p : nat) : list byte := firstn (p - pos) (skipn pos (parent I)).

Lemma view_between {I pos a m1 m2 b} : cur_view I pos a (m1 ++ m2) b ->
  between I pos (pos + length (encode m1)) = encode m1.
Proof. intros Hv. apply view_slice, slice_opt_some in Hv as [_ Hv]. symmetry. exact Hv. Qed.

Section Final.
  Variable E : env.
  Local Notation I := (e_inp E).
  Hypothesis Hcut : e_su_cut E = true.
  Hypothesis HI : good_inp I.

  (* the node: never fails, never panics, touches neither the stack nor the tracker *)
  Theorem skip_node_parse : forall fuel inh ss pos st, good_cur I pos ->
    tparse E (S fuel) inh (TSkipUntil ss) pos st =
      Ok (su_stop I ss pos, NSpanned KSkip pos (su_stop I ss pos)) st.
  Proof.
    intros fuel inh ss pos st Hc. cbn [tparse step_p]. rewrite Hcut.
    destruct (skip_until_good I ss pos HI Hc) as [Hle Hg]. unfold su_stop.
    destruct (i_skip_until I true ss pos) as [fnd p]. cbn [snd] in *.
    rewrite (i_span_good I pos p HI Hc Hg Hle). reflexivity.
  Qed.

  Theorem skip_node_check : forall fuel inh ss pos st,
    tcheck E (S fuel) inh (TSkipUntil ss) pos st = Ok (su_stop I ss pos) st.
  Proof.
    intros fuel inh ss pos st. cbn [tcheck step_c]. rewrite Hcut. unfold su_stop.
    destruct (i_skip_until I true ss pos) as [fnd p]. reflexivity.
  Qed.

  Theorem skip_node_offset : forall ss pos, good_cur I pos -> su_spec I ss pos (su_stop I ss pos).
  Proof.
    intros ss pos Hc. destruct (skip_until_good I ss pos HI Hc) as [_ Hg].
    destruct (su_stop_first I ss pos HI (proj2 (proj2 Hc))) as (Hr & Hb & He).
    exact (conj Hr (conj (proj1 Hg) (conj Hb He))).
  Qed.

  (* the expansion, parse path: on every fuel either out of fuel (and then the fuel is small), or the
     same offset as the node, a tree of one item per skipped character, the stack of a failed
     restore_on_none (same content), and one pair of predicate events per iteration *)
  Theorem skip_expansion_parse : forall fuel inh ss X pos st,
    good_cur I pos -> operand_of ss X ->
    exists cs, valid_str cs /\ between I pos (su_stop I ss pos) = encode cs /\
      ((fuel < i_end I - pos + 5 /\ tparse E fuel inh (su_expansion X) pos st = Fuel) \/
       tparse E fuel inh (su_expansion X) pos st =
         Ok (su_stop I ss pos, NRep false (map skip_item cs))
            (mk_state (ron_fail_stk E (stk st)) (neg_tr (S (length cs)) (tr st)))).
  Proof using Hcut HI.
    intros fuel inh ss X pos st Hc HX.
    destruct (good_cur_view I pos HI Hc) as (a & m & b & Hv).
    destruct (view_valid _ _ _ _ _ Hv) as (_ & Hm & _).
    assert (Hstop : su_stop I ss pos = pos + length (encode (skipped ss m))).
    { apply (first_at_unique (term_at I ss) (i_end I) pos).
      - apply su_stop_first; [exact HI|apply Hc].
      - apply (skipped_first I ss HI m a pos b Hv). }
    exists (skipped ss m). destruct (skipped_prefix ss m) as [m2 Hm2].
    split; [rewrite Hm2 in Hm; apply valid_app in Hm; apply Hm|]. split.
    - rewrite Hstop. pose proof Hv as Hv2. rewrite Hm2 in Hv2. exact (view_between Hv2).
    - rewrite Hstop. destruct fuel as [|n].
      + left. split; [lia|reflexivity].
      + unfold su_expansion. cbn [tparse step_p resolve].
        destruct (rep_loop E inh ss X HX n n n m a pos b st 0 [] Hv) as [[Hf H]|H].
        * left. split; [|exact H].
          pose proof (skipped_length ss m) as Hl1. pose proof (encode_length_ge m) as Hl2.
          destruct Hv as (_ & _ & Hca & He). lia.
        * right. exact H.
  Qed.

  (* the expansion never panics, so its check path is its parse path with the tree dropped *)
  Lemma skip_expansion_check fuel inh ss X pos st : good_cur I pos -> operand_of ss X ->
    tcheck E fuel inh (su_expansion X) pos st = erase (tparse E fuel inh (su_expansion X) pos st).
  Proof using Hcut HI.
    intros Hc HX. apply check_is_parse.
    destruct (skip_expansion_parse fuel inh ss X pos st Hc HX) as (cs & _ & _ & [[_ ->]| ->]); discriminate.
  Qed.
End Final.

Lemma ron_fail_stk_unfixed E s : e_ron_fixed E = false -> ron_fail_stk E s = s.
Proof. intros H. unfold ron_fail_stk. rewrite H. reflexivity. Qed.

(* 5 is the depth of the expansion (TRep, TSeq, TNeg, TChoice, TStr); end() - pos bounds the number of iterations *)
Theorem skip_expansion_fuel : forall E fuel inh ss X pos st,
  e_su_cut E = true -> good_inp (e_inp E) -> good_cur (e_inp E) pos -> operand_of ss X ->
  i_end (e_inp E) - pos + 5 <= fuel ->
  tparse E fuel inh (su_expansion X) pos st <> Fuel /\
  tcheck E fuel inh (su_expansion X) pos st <> Fuel.
Proof.
  intros E fuel inh ss X pos st Hcut HI Hc HX Hf.
  rewrite (skip_expansion_check E Hcut HI fuel inh ss X pos st Hc HX).
  destruct (skip_expansion_parse E Hcut HI fuel inh ss X pos st Hc HX) as (cs & _ & _ & [[Hlt _]| ->]); [lia|].
  split; discriminate.
Qed.

(* PARSE PATH.  On every fuel on which the expansion does not run out of fuel: the node and the
   expansion both succeed, at the same offset [p]; [p] is the specified offset; the node returns the
   state unchanged; the expansion returns the same stack content (physically: the stack of a failed
   restore_on_none) and has logged one (EPol false, EPolEnd) pair per iteration = per skipped
   character [cs] plus one for the iteration that stopped the loop. *)
Theorem C20_skip_rewrite_parse : forall E fuel inh ss X pos st,
  e_su_cut E = true -> good_inp (e_inp E) -> good_cur (e_inp E) pos -> operand_of ss X ->
  tparse E fuel inh (su_expansion X) pos st <> Fuel ->
  exists p cs,
    su_spec (e_inp E) ss pos p /\
    valid_str cs /\ between (e_inp E) pos p = encode cs /\
    tparse E fuel inh (TSkipUntil ss) pos st = Ok (p, NSpanned KSkip pos p) st /\
    tparse E fuel inh (su_expansion X) pos st =
      Ok (p, NRep false (map skip_item cs))
         (mk_state (ron_fail_stk E (stk st)) (neg_tr (S (length cs)) (tr st))) /\
    cache (ron_fail_stk E (stk st)) = cache (stk st).
Proof.
  intros E fuel inh ss X pos st Hcut HI Hc HX Hnf.
  destruct (skip_expansion_parse E Hcut HI fuel inh ss X pos st Hc HX) as (cs & Hcs & Hb & [[_ H]|H]);
    [contradiction|].
  exists (su_stop (e_inp E) ss pos), cs.
  split; [apply skip_node_offset; assumption|]. split; [exact Hcs|]. split; [exact Hb|].
  split; [|split; [exact H|apply ron_fail_stk_cache]].
  destruct fuel as [|n]; [exfalso; apply Hnf; reflexivity|].
  apply skip_node_parse; assumption.
Qed.

(* CHECK PATH, same statement *)
Theorem C20_skip_rewrite_check : forall E fuel inh ss X pos st,
  e_su_cut E = true -> good_inp (e_inp E) -> good_cur (e_inp E) pos -> operand_of ss X ->
  tcheck E fuel inh (su_expansion X) pos st <> Fuel ->
  exists p cs,
    su_spec (e_inp E) ss pos p /\
    valid_str cs /\ between (e_inp E) pos p = encode cs /\
    tcheck E fuel inh (TSkipUntil ss) pos st = Ok p st /\
    tcheck E fuel inh (su_expansion X) pos st =
      Ok p (mk_state (ron_fail_stk E (stk st)) (neg_tr (S (length cs)) (tr st))) /\
    cache (ron_fail_stk E (stk st)) = cache (stk st).
Proof.
  intros E fuel inh ss X pos st Hcut HI Hc HX Hnf.
  rewrite (skip_expansion_check E Hcut HI fuel inh ss X pos st Hc HX) in Hnf |- *.
  destruct (C20_skip_rewrite_parse E fuel inh ss X pos st Hcut HI Hc HX) as (p & cs & Hspec & Hcs & Hb & Hn & He & Hca).
  { intros H. rewrite H in Hnf. apply Hnf. reflexivity. }
  exists p, cs. rewrite (check_is_parse E fuel inh (TSkipUntil ss)), Hn, He by (rewrite Hn; discriminate).
  exact (conj Hspec (conj Hcs (conj Hb (conj eq_refl (conj eq_refl Hca))))).
Qed.

(* the comparison of two successful runs, as the property words it *)
Corollary C20_skip_rewrite_agree_parse : forall E fuel inh ss X pos st p t st' p' t' st'',
  e_su_cut E = true -> good_inp (e_inp E) -> good_cur (e_inp E) pos -> operand_of ss X ->
  tparse E fuel inh (TSkipUntil ss) pos st = Ok (p, t) st' ->
  tparse E fuel inh (su_expansion X) pos st = Ok (p', t') st'' ->
  p = p' /\ su_spec (e_inp E) ss pos p /\
  st' = st /\ cache (stk st'') = cache (stk st') /\
  exists cs, valid_str cs /\ between (e_inp E) pos p = encode cs /\
             tr st'' = neg_tr (S (length cs)) (tr st') /\
             t = NSpanned KSkip pos p /\ t' = NRep false (map skip_item cs).
Proof.
  intros E fuel inh ss X pos st p t st' p' t' st'' Hcut HI Hc HX Hn He.
  destruct (C20_skip_rewrite_parse E fuel inh ss X pos st Hcut HI Hc HX ltac:(rewrite He; discriminate))
    as (q & cs & Hspec & Hcs & Hb & Hn' & He' & Hca).
  rewrite Hn in Hn'. rewrite He in He'. injection Hn' as -> -> ->. injection He' as -> -> ->.
  split; [reflexivity|]. split; [exact Hspec|]. split; [reflexivity|]. split; [exact Hca|].
  exists cs. repeat split; assumption.
Qed.

Corollary C20_skip_rewrite_agree_check : forall E fuel inh ss X pos st p st' p' st'',
  e_su_cut E = true -> good_inp (e_inp E) -> good_cur (e_inp E) pos -> operand_of ss X ->
  tcheck E fuel inh (TSkipUntil ss) pos st = Ok p st' ->
  tcheck E fuel inh (su_expansion X) pos st = Ok p' st'' ->
  p = p' /\ su_spec (e_inp E) ss pos p /\
  st' = st /\ cache (stk st'') = cache (stk st') /\
  exists cs, valid_str cs /\ between (e_inp E) pos p = encode cs /\
             tr st'' = neg_tr (S (length cs)) (tr st').
Proof.
  intros E fuel inh ss X pos st p st' p' st'' Hcut HI Hc HX Hn He.
  destruct (C20_skip_rewrite_check E fuel inh ss X pos st Hcut HI Hc HX ltac:(rewrite He; discriminate))
    as (q & cs & Hspec & Hcs & Hb & Hn' & He' & Hca).
  rewrite Hn in Hn'. rewrite He in He'. injection Hn' as -> ->. injection He' as -> ->.
  split; [reflexivity|]. split; [exact Hspec|]. split; [reflexivity|]. split; [exact Hca|].
  exists cs. repeat split; assumption.
Qed.

(* neither side fails or panics, on any fuel, on either path *)
Theorem C20_skip_rewrite_total : forall E fuel inh ss X pos st,
  e_su_cut E = true -> good_inp (e_inp E) -> good_cur (e_inp E) pos -> operand_of ss X ->
  (forall s, tparse E fuel inh (TSkipUntil ss) pos st <> Fail s) /\
  tparse E fuel inh (TSkipUntil ss) pos st <> Panic /\
  (forall s, tparse E fuel inh (su_expansion X) pos st <> Fail s) /\
  tparse E fuel inh (su_expansion X) pos st <> Panic /\
  (forall s, tcheck E fuel inh (TSkipUntil ss) pos st <> Fail s) /\
  tcheck E fuel inh (TSkipUntil ss) pos st <> Panic /\
  (forall s, tcheck E fuel inh (su_expansion X) pos st <> Fail s) /\
  tcheck E fuel inh (su_expansion X) pos st <> Panic.
Proof.
  intros E fuel inh ss X pos st Hcut HI Hc HX.
  destruct fuel as [|n]; [repeat split; try intros s; discriminate|].
  rewrite (skip_expansion_check E Hcut HI (S n) inh ss X pos st Hc HX),
    (skip_node_parse E Hcut HI n inh ss pos st Hc), (skip_node_check E Hcut n inh ss pos st).
  destruct (skip_expansion_parse E Hcut HI (S n) inh ss X pos st Hc HX) as (cs & _ & _ & [[_ ->]| ->]);
    repeat split; try intros s; discriminate.
Qed.

Definition ex_env (I : inp) (ron_fixed cut : bool) : env :=
  mk_env I (fun _ => mk_rdef None EmExpr TFail) SkipEmpty (fun _ _ => false) 0%N ron_fixed cut true.

Definition off_p (r : res (nat * tnode)) : option nat := match r with Ok (p, _) _ => Some p | _ => None end.
Definition off_c (r : res nat) : option nat := match r with Ok p _ => Some p | _ => None end.

(* "ab,c\r\nxyz", terminators "\r\n" | "\n": both sides stop at offset 4, on both paths, under both
   restore_on_none variants; the node logs nothing, the expansion 5 predicate pairs *)
Definition ex1_s : list byte := [97; 98; 44; 99; 13; 10; 120; 121; 122]%N.
Definition ex1_ss : list (list byte) := [[13; 10]; [10]]%N.

Example ex1_offsets :
  forall fixed, In fixed [true; false] ->
  let E := ex_env (inp_of_str ex1_s) fixed true in
  off_p (tparse E 20 false (TSkipUntil ex1_ss) 0 st0) = Some 4 /\
  off_p (tparse E 20 false (su_expansion (su_operand ex1_ss)) 0 st0) = Some 4 /\
  off_c (tcheck E 20 false (TSkipUntil ex1_ss) 0 st0) = Some 4 /\
  off_c (tcheck E 20 false (su_expansion (su_operand ex1_ss)) 0 st0) = Some 4.
Proof. intros fixed [<-|[<-|[]]]; vm_compute; repeat split. Qed.

Example ex1_traces :
  let E := ex_env (inp_of_str ex1_s) true true in
  tparse E 20 false (TSkipUntil ex1_ss) 0 st0 = Ok (4, NSpanned KSkip 0 4) st0 /\
  tparse E 20 false (su_expansion (su_operand ex1_ss)) 0 st0 =
    Ok (4, NRep false (map skip_item [97; 98; 44; 99]%N)) (mk_state stack_new (neg_tr 5 [])).
Proof. vm_compute. split; reflexivity. Qed.

(* a terminator straddling the end of a Span sub-input: parent "ab\r\nc", span 0..3 ends between "\r"
   and "\n", terminator "\r\n": with the repaired skip_until both sides stop at the span's end 3 *)
Definition ex2_s : list byte := [97; 98; 13; 10; 99]%N.
Definition ex2_ss : list (list byte) := [[13; 10]]%N.

Example ex2_span_end :
  let E := ex_env (inp_of_span ex2_s 0 3) true true in
  off_p (tparse E 20 false (TSkipUntil ex2_ss) 0 st0) = Some 3 /\
  off_p (tparse E 20 false (su_expansion (su_operand ex2_ss)) 0 st0) = Some 3 /\
  off_c (tcheck E 20 false (TSkipUntil ex2_ss) 0 st0) = Some 3 /\
  off_c (tcheck E 20 false (su_expansion (su_operand ex2_ss)) 0 st0) = Some 3 /\
  off_p (tparse E 20 false (su_expansion (TChoice (map TStr ex2_ss))) 0 st0) = Some 3.
Proof. vm_compute. repeat split. Qed.

(* the premise [e_su_cut E = true] is needed: the code before the repair compares against text that
   runs to the end of the parent string; the node then stops at 2, the expansion at 3 *)
Example ex2_uncut_refuted :
  let E := ex_env (inp_of_span ex2_s 0 3) true false in
  good_inp (e_inp E) /\ good_cur (e_inp E) 0 /\
  off_p (tparse E 20 false (TSkipUntil ex2_ss) 0 st0) = Some 2 /\
  off_p (tparse E 20 false (su_expansion (su_operand ex2_ss)) 0 st0) = Some 3 /\
  off_c (tcheck E 20 false (TSkipUntil ex2_ss) 0 st0) = Some 2 /\
  off_c (tcheck E 20 false (su_expansion (su_operand ex2_ss)) 0 st0) = Some 3.
Proof.
  cbv zeta. split; [|split; [|vm_compute; repeat split]].
  - split.
    + exists [97; 98; 13; 10; 99]%N. split; [|reflexivity]. repeat constructor.
    + vm_compute. repeat split; lia.
  - vm_compute. repeat split; lia.
Qed.

(* the premise [good_cur] is needed: from a cursor inside a character ("é", offset 1) the expansion
   panics (Input::get slices at a non-boundary) while the node's check path returns the end *)
Example ex3_inside_char :
  let E := ex_env (inp_of_str [195; 169]%N) true true in
  tcheck E 20 false (TSkipUntil [[10]]%N) 1 st0 = Ok 2 st0 /\
  tcheck E 20 false (su_expansion (su_operand [[10]]%N)) 1 st0 = Panic /\
  tparse E 20 false (TSkipUntil [[10]]%N) 1 st0 = Panic /\
  tparse E 20 false (su_expansion (su_operand [[10]]%N)) 1 st0 = Panic.
Proof. vm_compute. repeat split. Qed.

(* no premise on the terminators is needed (the theorems above quantify over every [ss]); samples:
   an empty terminator stops both sides at once (also at the end of the input), a terminator that is
   not valid UTF-8 never matches valid text, an empty list of terminators runs to the end *)
Example ex4_odd_terminators :
  let E := ex_env (inp_of_str ex1_s) true true in
  off_p (tparse E 20 false (TSkipUntil [[]]) 2 st0) = Some 2 /\
  off_p (tparse E 20 false (su_expansion (su_operand [[]])) 2 st0) = Some 2 /\
  off_p (tparse E 20 false (TSkipUntil [[]]) 9 st0) = Some 9 /\
  off_p (tparse E 20 false (su_expansion (su_operand [[]])) 9 st0) = Some 9 /\
  off_p (tparse E 20 false (TSkipUntil [[255]; [98; 200]]%N) 0 st0) = Some 9 /\
  off_p (tparse E 20 false (su_expansion (su_operand [[255]; [98; 200]]%N)) 0 st0) = Some 9 /\
  off_p (tparse E 20 false (TSkipUntil []) 0 st0) = Some 9 /\
  off_p (tparse E 20 false (su_expansion (su_operand [])) 0 st0) = Some 9.
Proof. vm_compute. repeat split. Qed.

(* the theorem instantiated on the first example (non-vacuity of the premises) *)
Example ex1_premises :
  let E := ex_env (inp_of_str ex1_s) true true in
  e_su_cut E = true /\ good_inp (e_inp E) /\ good_cur (e_inp E) 0 /\
  operand_of ex1_ss (su_operand ex1_ss) /\
  tparse E 20 false (su_expansion (su_operand ex1_ss)) 0 st0 <> Fuel.
Proof.
  cbv zeta. split; [reflexivity|]. split; [|split; [|split; [apply su_operand_ok|vm_compute; discriminate]]].
  - change (inp_of_str ex1_s) with (inp_of_str (encode [97; 98; 44; 99; 13; 10; 120; 121; 122]%N)).
    apply good_inp_str. repeat constructor.
  - vm_compute. repeat split; lia.
Qed.

Print Assumptions C20_skip_rewrite_parse.
Print Assumptions C20_skip_rewrite_check.
Print Assumptions C20_skip_rewrite_agree_parse.
Print Assumptions C20_skip_rewrite_agree_check.
Print Assumptions C20_skip_rewrite_total.
Print Assumptions skip_expansion_fuel.
Print Assumptions skip_expansion_parse.
Print Assumptions skip_node_parse.
Print Assumptions skip_node_check.
Print Assumptions skip_node_offset.
Print Assumptions su_spec_unique.
Print Assumptions ex2_uncut_refuted.
