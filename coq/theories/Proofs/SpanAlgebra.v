(* C13, the algebra of `get`, `as_str` and `merge_spans`: what a user who composes them relies on, as with
   pest's Span.  Every theorem is a corollary of the specifications proved in SpanProofs.v. *)
From Coq Require Import List NArith Arith Bool Lia.
From PT Require Import Model.Base Model.SpanOps Proofs.ListFacts Proofs.BaseFacts Proofs.SpanProofs.
Import ListNotations.
Local Open Scope nat_scope.

Lemma get_some_shape s a b lo hi a' b' :
  valid_span s a b = true -> bound_ok lo -> bound_ok hi ->
  span_get s (a, b) lo hi = MOk (Some (a', b')) ->
  a' = a + N.to_nat (lo_of lo) /\ b' = a + N.to_nat (hi_of hi (b - a)) /\
  (hi_of hi (b - a) <= N.of_nat (b - a))%N /\ valid_span s a' b' = true.
Proof.
  intros V Hlo Hhi. rewrite (span_get_correct s a b lo hi V Hlo Hhi).
  unfold span_get_spec. cbn [fst snd]. rewrite span_new_spec.
  destruct (N.leb_spec (hi_of hi (b - a)) (N.of_nat (b - a))) as [Hle|]; [|discriminate].
  destruct (valid_span s (a + _) _) eqn:V'; [|discriminate].
  intros [= <- <-]. auto.
Qed.

Lemma firstn_skipn_sub {A} (l : list A) a b a' b' :
  a <= a' -> a' <= b' -> b' <= b ->
  firstn (b' - a') (skipn (a' - a) (firstn (b - a) (skipn a l))) = firstn (b' - a') (skipn a' l).
Proof.
  intros H1 H2 H3.
  rewrite skipn_firstn_comm, skipn_skipn, (Nat.sub_add a a' H1), firstn_firstn.
  f_equal. lia.
Qed.

Lemma firstn_skipn_adj {A} (l : list A) a m b : a <= m -> m <= b ->
  firstn (b - a) (skipn a l) = firstn (m - a) (skipn a l) ++ firstn (b - m) (skipn m l).
Proof.
  intros H1 H2. replace (b - a) with ((m - a) + (b - m)) by lia.
  rewrite firstn_plus, skipn_skipn, (Nat.sub_add a m H1). reflexivity.
Qed.

Theorem get_sub_text : forall s a b lo hi a' b' t,
  valid_span s a b = true -> bound_ok lo -> bound_ok hi ->
  span_get s (a, b) lo hi = MOk (Some (a', b')) ->
  span_as_str s (a, b) = MOk t ->
  a <= a' /\ a' <= b' /\ b' <= b /\ valid_span s a' b' = true /\
  span_as_str s (a', b') = MOk (firstn (b' - a') (skipn (a' - a) t)).
Proof.
  intros s a b lo hi a' b' t V Hlo Hhi G T.
  destruct (get_some_shape s a b lo hi a' b' V Hlo Hhi G) as (Ea & Eb & Hle & V').
  destruct (proj1 (slice_test_iff _ _ _) V) as (Hab & _).
  destruct (proj1 (slice_test_iff _ _ _) V') as (Hab' & _).
  assert (Hb' : b' <= b) by lia.
  assert (Ha' : a <= a') by lia.
  rewrite (as_str_valid _ _ _ V) in T. injection T as <-.
  rewrite (as_str_valid _ _ _ V'), firstn_skipn_sub by assumption. auto.
Qed.

Theorem get_compose : forall s a b (x y u v : N) sp1 sp2,
  valid_span s a b = true ->
  (y < usize_max)%N -> (u <= v)%N -> (v < usize_max)%N -> (x + v < usize_max)%N ->
  span_get s (a, b) (BIncl x) (BExcl y) = MOk (Some sp1) ->
  span_get s sp1 (BIncl u) (BExcl v) = MOk (Some sp2) ->
  span_get s (a, b) (BIncl (x + u)) (BExcl (x + v)) = MOk (Some sp2).
Proof.
  intros s a b x y u v [a1 b1] [a2 b2] V Hy Huv Hv Hxv G1 G2.
  apply get_some_shape in G1 as (-> & -> & Hle1 & V1); [|exact V|cbn; lia|exact Hy].
  apply get_some_shape in G2 as (-> & -> & Hle2 & V2); [|exact V1|cbn; lia|exact Hv].
  cbn [lo_of hi_of] in *.
  destruct (proj1 (slice_test_iff _ _ _) V) as (Hab & _).
  destruct (proj1 (slice_test_iff _ _ _) V1) as (Hab1 & _).
  rewrite (span_get_correct s a b (BIncl (x + u)%N) (BExcl (x + v)%N) V) by (cbn; lia).
  unfold span_get_spec. cbn [fst snd lo_of hi_of].
  rewrite (proj2 (N.leb_le _ _)), span_new_spec by lia.
  rewrite !N2Nat.inj_add, !Nat.add_assoc, V2. reflexivity.
Qed.

Theorem merge_adjacent_text : forall s a m b ta tb,
  valid_span s a m = true -> valid_span s m b = true ->
  span_as_str s (a, m) = MOk ta -> span_as_str s (m, b) = MOk tb ->
  merge_spans s (a, m) (m, b) = Some (a, b) /\ span_as_str s (a, b) = MOk (ta ++ tb).
Proof.
  intros s a m b ta tb V1 V2 T1 T2.
  destruct (proj1 (slice_test_iff _ _ _) V1) as (H1 & _).
  destruct (proj1 (slice_test_iff _ _ _) V2) as (H2 & _).
  pose proof (valid_span_hull s a m m b V1 V2) as V.
  rewrite (merge_spans_correct s a m m b V1 V2). unfold merge_spec. cbn [fst snd].
  rewrite Nat.leb_refl, (proj2 (Nat.leb_le a b)) by lia. cbn [andb].
  rewrite (Nat.min_l a m H1), (Nat.max_r m b H2) in *.
  rewrite (as_str_valid _ _ _ V1) in T1. rewrite (as_str_valid _ _ _ V2) in T2.
  injection T1 as <-. injection T2 as <-.
  rewrite (as_str_valid _ _ _ V), (firstn_skipn_adj s a m b H1 H2). auto.
Qed.

Theorem merge_idem : forall s a b, valid_span s a b = true -> merge_spans s (a, b) (a, b) = Some (a, b).
Proof.
  intros s a b V. rewrite (merge_spans_correct s a b a b V V). unfold merge_spec. cbn [fst snd].
  destruct (proj1 (slice_test_iff _ _ _) V) as (H%Nat.leb_le & _).
  rewrite H, Nat.min_id, Nat.max_id. reflexivity.
Qed.

Theorem merge_is_hull : forall s a1 a2 b1 b2 m1 m2,
  valid_span s a1 a2 = true -> valid_span s b1 b2 = true ->
  merge_spans s (a1, a2) (b1, b2) = Some (m1, m2) ->
  valid_span s m1 m2 = true /\ m1 <= a1 /\ m1 <= b1 /\ a2 <= m2 /\ b2 <= m2 /\
  (forall c1 c2, c1 <= a1 -> c1 <= b1 -> a2 <= c2 -> b2 <= c2 -> c1 <= m1 /\ m2 <= c2).
Proof.
  intros s a1 a2 b1 b2 m1 m2 V1 V2.
  rewrite (merge_spans_correct s a1 a2 b1 b2 V1 V2). unfold merge_spec. cbn [fst snd].
  destruct ((b1 <=? a2) && (a1 <=? b2)); [|discriminate]. intros [= <- <-].
  split; [exact (valid_span_hull s a1 a2 b1 b2 V1 V2)|]. repeat split; lia.
Qed.

Example span_algebra_example :
  let s := encode [20013; 97; 98; 10; 99]%N in          (* "中ab\nc": 3 + 1 + 1 + 1 + 1 bytes *)
  span_get s (0, 7) (BIncl 3%N) (BExcl 6%N) = MOk (Some (3, 6)) /\
  span_get s (3, 6) (BIncl 1%N) (BExcl 2%N) = MOk (Some (4, 5)) /\
  span_get s (0, 7) (BIncl 4%N) (BExcl 5%N) = MOk (Some (4, 5)) /\
  span_get s (0, 7) (BIncl 1%N) (BExcl 5%N) = MOk None /\
  merge_spans s (0, 3) (3, 5) = Some (0, 5).
Proof. vm_compute. repeat split. Qed.
