(* C13: the model of span.rs (Model/SpanOps.v) computes its declarative specification for every
   string and every valid span. *)
From Coq Require Import List NArith Arith Bool Lia.
From PT Require Import Model.Base Model.Lines Model.LinesSpec Model.SpanOps
  Proofs.ListFacts Proofs.BaseFacts Proofs.LinesUtf8 Proofs.LinesProofs.
Import ListNotations.
Local Open Scope N_scope.

Lemma slice_checked_valid s a b :
  slice_checked s a b = if valid_span s a b then MOk (firstn (b - a) (skipn a s)) else MPanic.
Proof. reflexivity. Qed.

Lemma slice_opt_valid s a b :
  slice_opt s a b = if valid_span s a b then Some (firstn (b - a) (skipn a s)) else None.
Proof. reflexivity. Qed.

Lemma slice_checked_ok s a b t : slice_checked s a b = MOk t -> valid_span s a b = true.
Proof. rewrite slice_checked_valid. destruct (valid_span s a b); [reflexivity|discriminate]. Qed.

Theorem span_new_spec : forall s a b,
  span_new s a b = if valid_span s a b then Some (a, b) else None.
Proof.
  intros s a b. unfold span_new. rewrite slice_opt_valid. destruct (valid_span s a b); reflexivity.
Qed.

Theorem valid_span_chars : forall cs a b, valid_str cs ->
  (valid_span (encode cs) a b = true <->
   exists i j, (i <= j <= length cs)%nat /\ a = boff cs i /\ b = boff cs j).
Proof.
  intros cs a b Hv. split.
  - intros (Hab & Hbl & Ha & Hb)%slice_test_iff.
    destruct (boundary_is_prefix cs Hv a (Nat.le_trans _ _ _ Hab Hbl) Ha) as (i & Hi & ->).
    destruct (boundary_is_prefix cs Hv b Hbl Hb) as (j & Hj & ->).
    destruct (Nat.le_gt_cases i j) as [Hij|Hji].
    + exists i, j. auto.
    + (* j < i and boff cs i <= boff cs j: the two offsets coincide *)
      exists i, i. split; [auto|]. split; [reflexivity|].
      apply Nat.le_antisymm; [apply boff_mono, Nat.lt_le_incl, Hji|exact Hab].
  - intros (i & j & [Hij _] & -> & ->).
    apply slice_test_iff; repeat split; auto using boff_mono, boff_le, boff_boundary.
Qed.

Lemma as_str_valid s a b : valid_span s a b = true ->
  span_as_str s (a, b) = MOk (firstn (b - a) (skipn a s)).
Proof. intros H. unfold span_as_str. cbn [fst snd]. rewrite slice_checked_valid, H. reflexivity. Qed.

Theorem span_split_correct : forall s a b, valid_span s a b = true ->
  span_split s (a, b) = MOk (a, b).
Proof.
  intros s a b (Hab & Hbl & Ha & Hb)%slice_test_iff.
  unfold span_split, pos_new_unchecked. cbn [fst snd].
  rewrite (pos_new_valid s a (Nat.le_trans _ _ _ Hab Hbl) Ha), (pos_new_valid s b Hbl Hb). reflexivity.
Qed.

Lemma valid_span_sub s a b k1 k2 : valid_span s a b = true ->
  valid_span (firstn (b - a) (skipn a s)) k1 k2 =
  (k2 <=? b - a)%nat && valid_span s (a + k1) (a + k2).
Proof.
  intros V. pose proof (proj1 (slice_test_iff s a b) V) as (Hab & Hbl & Ha & Hb).
  unfold valid_span. rewrite (slice_length s a b Hbl).
  destruct (Nat.leb_spec k2 (b - a)) as [H2|H2]; [|rewrite andb_false_r; reflexivity].
  destruct (Nat.leb_spec k1 k2) as [H1|H1].
  - rewrite !(is_boundary_slice s a b) by (assumption || lia).
    rewrite !(proj2 (Nat.leb_le _ _)) by lia. reflexivity.
  - rewrite (proj2 (Nat.leb_gt _ _)) by lia. reflexivity.
Qed.

Lemma str_get_N_spec t x y :
  str_get_N t x y =
  if valid_span t (N.to_nat x) (N.to_nat y) then Some (N.to_nat x, N.to_nat y) else None.
Proof.
  unfold str_get_N. rewrite slice_opt_valid.
  destruct (valid_span t (N.to_nat x) (N.to_nat y)) eqn:V.
  - apply slice_test_iff in V. destruct V as (H1 & H2 & _).
    rewrite !(proj2 (N.leb_le _ _)) by lia. reflexivity.
  - destruct (_ && _); reflexivity.
Qed.

Lemma succ_usize_ok n : n < usize_max -> succ_usize n = MOk (n + 1).
Proof. intros H. unfold succ_usize. rewrite (proj2 (N.eqb_neq _ _)) by lia. reflexivity. Qed.

Lemma lo_eval lo : bound_ok lo ->
  match lo with BIncl n => MOk n | BExcl n => succ_usize n | BUnb => MOk 0 end = MOk (lo_of lo).
Proof. destruct lo; [reflexivity|apply succ_usize_ok|reflexivity]. Qed.

Lemma hi_eval s a b hi : valid_span s a b = true -> bound_ok hi ->
  match hi with
  | BIncl n => succ_usize n
  | BExcl n => MOk n
  | BUnb => mbind (span_as_str s (a, b)) (fun t => MOk (N.of_nat (length t)))
  end = MOk (hi_of hi (b - a)).
Proof.
  intros V. destruct hi; [apply succ_usize_ok|reflexivity|]. intros _.
  apply slice_test_iff in V as Hp. destruct Hp as (Hab & Hbl & _).
  rewrite (as_str_valid s a b V). cbn [mbind hi_of]. rewrite (slice_length s a b Hbl). reflexivity.
Qed.

Theorem span_get_correct : forall s a b lo hi,
  valid_span s a b = true -> bound_ok lo -> bound_ok hi ->
  span_get s (a, b) lo hi = MOk (span_get_spec s (a, b) lo hi).
Proof.
  intros s a b lo hi Hv Hlo Hhi. unfold span_get, span_get_spec.
  rewrite (lo_eval lo Hlo), (hi_eval s a b hi Hv Hhi), (as_str_valid s a b Hv). cbn [mbind fst snd].
  rewrite str_get_N_spec, span_new_spec, (valid_span_sub s a b _ _ Hv).
  destruct (N.leb_spec (hi_of hi (b - a)) (N.of_nat (b - a)));
    [rewrite (proj2 (Nat.leb_le _ _)) by lia|rewrite (proj2 (Nat.leb_gt _ _)) by lia]; cbn [andb].
  - destruct (valid_span s (a + _) _); reflexivity.
  - reflexivity.
Qed.

Lemma valid_span_hull s a1 a2 b1 b2 :
  valid_span s a1 a2 = true -> valid_span s b1 b2 = true ->
  valid_span s (Nat.min a1 b1) (Nat.max a2 b2) = true.
Proof.
  intros (Ha12 & Ha2l & Hba1 & Hba2)%slice_test_iff (Hb12 & Hb2l & Hbb1 & Hbb2)%slice_test_iff.
  apply slice_test_iff. repeat split.
  - exact (Nat.le_trans _ _ _ (Nat.le_min_l _ _) (Nat.le_trans _ _ _ Ha12 (Nat.le_max_l _ _))).
  - apply Nat.max_lub; assumption.
  - apply Nat.min_case; assumption.
  - apply Nat.max_case; assumption.
Qed.

Theorem merge_spans_correct : forall s a1 a2 b1 b2,
  valid_span s a1 a2 = true -> valid_span s b1 b2 = true ->
  merge_spans s (a1, a2) (b1, b2) = merge_spec (a1, a2) (b1, b2).
Proof.
  intros s a1 a2 b1 b2 Ha Hb. unfold merge_spans, merge_spec. cbn [fst snd].
  rewrite span_new_spec, (valid_span_hull s a1 a2 b1 b2 Ha Hb). reflexivity.
Qed.

Lemma merge_spec_sym a b : merge_spec a b = merge_spec b a.
Proof.
  unfold merge_spec. rewrite (andb_comm (fst b <=? snd a)%nat), Nat.min_comm, Nat.max_comm. reflexivity.
Qed.

Theorem span_eq_spec : forall same a b, span_eq same a b = true <-> same = true /\ a = b.
Proof.
  intros same [a1 a2] [b1 b2]. unfold span_eq. cbn [fst snd].
  split.
  - intros [[-> ->%Nat.eqb_eq]%andb_prop ->%Nat.eqb_eq]%andb_prop. auto.
  - intros [-> [= -> ->]]. rewrite !Nat.eqb_refl. reflexivity.
Qed.

Lemma split_lines_nil cs : split_lines cs = [] -> cs = [].
Proof.
  destruct cs as [|c r]; [reflexivity|]. cbn [split_lines].
  destruct (is_lf c); [discriminate|]. destruct (split_lines r); discriminate.
Qed.

Lemma split_lines_unfold cs : cs <> [] ->
  split_lines cs = upto_lf cs :: split_lines (after_lf cs).
Proof.
  induction cs as [|c r IH]; intros H; [congruence|].
  cbn [split_lines upto_lf after_lf]. destruct (is_lf c); [reflexivity|].
  destruct r as [|c2 r2]; [reflexivity|].
  rewrite IH by discriminate. reflexivity.
Qed.

Lemma concat_split_lines cs : concat (split_lines cs) = cs.
Proof.
  induction cs as [|c r IH]; [reflexivity|].
  cbn [split_lines]. destruct (is_lf c).
  - cbn [concat app]. rewrite IH. reflexivity.
  - destruct (split_lines r) as [|l ls] eqn:E.
    + apply split_lines_nil in E. subst r. reflexivity.
    + cbn [concat app] in *. rewrite IH. reflexivity.
Qed.

Lemma split_lines_snoc_lf a x X : is_lf x = true ->
  split_lines (a ++ x :: X) = split_lines (a ++ [x]) ++ split_lines X.
Proof.
  intros Hx. induction a as [|c r IH].
  - cbn [app split_lines]. rewrite Hx. reflexivity.
  - cbn [app split_lines]. destruct (is_lf c).
    + rewrite IH. reflexivity.
    + rewrite IH. destruct (split_lines (r ++ [x])) as [|l ls] eqn:E.
      * apply split_lines_nil in E. destruct r; discriminate.
      * reflexivity.
Qed.

Lemma upto_last_lf_shape pre :
  upto_last_lf pre = [] \/ exists t x, upto_last_lf pre = t ++ [x] /\ is_lf x = true.
Proof.
  induction pre as [|x a IH] using rev_ind; [left; reflexivity|].
  rewrite upto_last_lf_snoc. destruct (is_lf x) eqn:Hx; [|exact IH].
  right. exists a, x. split; [reflexivity|exact Hx].
Qed.

Lemma split_lines_complete pre X :
  split_lines (upto_last_lf pre ++ X) = split_lines (upto_last_lf pre) ++ split_lines X.
Proof.
  destruct (upto_last_lf_shape pre) as [E|(t & x & E & Hx)]; rewrite E; [reflexivity|].
  rewrite <- app_assoc. cbn [app]. apply split_lines_snoc_lf. exact Hx.
Qed.

Lemma take_nolf_nolf l : Forall (fun c => is_lf c = false) (take_nolf l).
Proof.
  induction l as [|c r IH]; [constructor|]. cbn [take_nolf].
  destruct (is_lf c) eqn:E; [constructor|]. constructor; assumption.
Qed.

Lemma upto_lf_nolf_app A Y : Forall (fun c => is_lf c = false) A ->
  upto_lf (A ++ Y) = A ++ upto_lf Y /\ after_lf (A ++ Y) = after_lf Y.
Proof.
  induction A as [|c r IH]; intros H; [split; reflexivity|].
  inversion H as [|? ? Hc Hr]; subst. cbn [app upto_lf after_lf]. rewrite Hc.
  destruct (IH Hr) as [-> ->]. split; reflexivity.
Qed.

Lemma upto_lf_ends post : after_lf post <> [] ->
  exists t x, upto_lf post = t ++ [x] /\ is_lf x = true.
Proof.
  induction post as [|c r IH]; intros H; [cbn in H; congruence|].
  cbn [upto_lf after_lf] in *. destruct (is_lf c) eqn:Hc.
  - exists [], c. split; [reflexivity|exact Hc].
  - destruct (IH H) as (t & x & E & Hx). exists (c :: t), x. rewrite E. split; [reflexivity|exact Hx].
Qed.

Lemma upto_lf_nonempty post : post <> [] -> (1 <= length (encode (upto_lf post)))%nat.
Proof.
  destruct post as [|c r]; intros H; [congruence|].
  cbn [upto_lf]. pose proof (len_utf8_pos c).
  destruct (is_lf c); rewrite encode_length_cons; lia.
Qed.

(* The iterator stands at the boundary between [pre] and [post], cs = pre ++ post.  One call of
   next() moves it past the first line of [post], to the next line start if anything is left. *)
Lemma cursor_next cs pre post : cs = pre ++ post -> cs = (pre ++ upto_lf post) ++ after_lf post.
Proof. intros ->. rewrite <- app_assoc, upto_after_lf. reflexivity. Qed.

Lemma line_start_next pre post : after_lf post <> [] ->
  upto_last_lf (pre ++ upto_lf post) = pre ++ upto_lf post.
Proof.
  intros (t & x & E & Hx)%upto_lf_ends. rewrite E, app_assoc, upto_last_lf_snoc, Hx. reflexivity.
Qed.

Lemma ls_next_none s a b pos : (b < pos \/ pos = length s)%nat -> ls_next s (a, b) pos = None.
Proof.
  intros H. unfold ls_next. cbn [snd]. destruct (Nat.ltb_spec b pos) as [|Hle]; [reflexivity|].
  destruct H as [H| ->]; [lia|].
  rewrite (pos_new_valid s _ (le_n _) (is_boundary_length s)), Nat.eqb_refl. reflexivity.
Qed.

Lemma ls_collect_none s sp pos : ls_next s sp pos = None ->
  forall fuel, ls_collect fuel s sp pos = LOk [].
Proof. intros H fuel. destruct fuel; cbn [ls_collect]; rewrite H; reflexivity. Qed.

Lemma ls_next_step cs pre post a b : cs = pre ++ post -> valid_str cs -> post <> [] ->
  (length (encode pre) <= b)%nat ->
  ls_next (encode cs) (a, b) (length (encode pre)) =
  Some ((length (encode (upto_last_lf pre)),
         (length (encode pre) + length (encode (upto_lf post)))%nat),
        (length (encode pre) + length (encode (upto_lf post)))%nat).
Proof.
  intros -> Hv Hne Hb. unfold ls_next. cbn [snd].
  rewrite (proj2 (Nat.ltb_ge _ _) Hb).
  rewrite pos_new_valid by (rewrite encode_length_app; apply Nat.le_add_r) || apply boundary_at_prefix, Hv.
  pose proof (upto_lf_nonempty post Hne). pose proof (encode_length_upto_after post).
  rewrite (proj2 (Nat.eqb_neq _ _)) by (rewrite encode_length_app; lia).
  rewrite (find_line_start_spec pre post Hv), (find_line_end_spec pre post Hv), span_new_spec.
  rewrite (slice_checked_ok _ _ _ _ (line_slice pre post Hv)). reflexivity.
Qed.

Fixpoint spans_upto (b off : nat) (L : list (list char)) : list (nat * nat) :=
  match L with
  | [] => []
  | l :: r =>
      if (b <? off)%nat then []
      else (off, off + length (encode l))%nat :: spans_upto b (off + length (encode l)) r
  end.

(* what is yielded with the iterator between [pre] and [post]: the line around that boundary, which
   may have begun before it, then the lines after it that start at or before b *)
Definition lines_at (b : nat) (pre post : list char) : list (nat * nat) :=
  match split_lines post with
  | [] => []
  | l :: r =>
      if (b <? length (encode pre))%nat then []
      else (length (encode (upto_last_lf pre)), length (encode pre) + length (encode l))%nat
           :: spans_upto b (length (encode pre) + length (encode l)) r
  end.

Lemma lines_at_start b pre post : (post <> [] -> upto_last_lf pre = pre) ->
  lines_at b pre post = spans_upto b (length (encode pre)) (split_lines post).
Proof.
  intros H. unfold lines_at. destruct (split_lines post) eqn:E; [reflexivity|].
  cbn [spans_upto]. rewrite H; [reflexivity|]. intros ->. discriminate E.
Qed.

Lemma ls_collect_lines_at cs a b : valid_str cs -> forall L pre post fuel,
  split_lines post = L -> cs = pre ++ post -> (length (encode post) <= fuel)%nat ->
  ls_collect fuel (encode cs) (a, b) (length (encode pre)) = LOk (lines_at b pre post).
Proof.
  intros Hv. induction L as [|l L IH]; intros pre post fuel HL Hcs Hf; unfold lines_at; rewrite HL.
  - apply split_lines_nil in HL. subst post. rewrite app_nil_r in Hcs.
    apply ls_collect_none, ls_next_none. right. rewrite Hcs. reflexivity.
  - assert (Hne : post <> []) by (intros ->; discriminate HL).
    rewrite (split_lines_unfold post Hne) in HL. injection HL as <- <-.
    destruct (Nat.ltb_spec b (length (encode pre))) as [Hlt|Hge].
    + apply ls_collect_none, ls_next_none. left. exact Hlt.
    + pose proof (upto_lf_nonempty post Hne). rewrite (encode_length_upto_after post) in Hf.
      destruct fuel as [|f]; [lia|]. cbn [ls_collect].
      rewrite (ls_next_step cs pre post a b Hcs Hv Hne Hge), <- encode_length_app.
      rewrite (IH (pre ++ upto_lf post) (after_lf post) f eq_refl (cursor_next _ _ _ Hcs)) by lia.
      rewrite lines_at_start by apply line_start_next. reflexivity.
Qed.

Lemma spans_from_app off L1 L2 :
  spans_from off (L1 ++ L2) =
  spans_from off L1 ++ spans_from (off + length (encode (concat L1))) L2.
Proof.
  revert off. induction L1 as [|l r IH]; intros off.
  - cbn. rewrite Nat.add_0_r. reflexivity.
  - cbn [app spans_from concat]. rewrite IH, encode_length_app, Nat.add_assoc. reflexivity.
Qed.

Lemma filter_spans_before a b L : forall off, (off + length (encode (concat L)) <= a)%nat ->
  filter (touches a b) (spans_from off L) = [].
Proof.
  induction L as [|l r IH]; intros off H; [reflexivity|].
  cbn [spans_from filter concat] in *. rewrite encode_length_app in H.
  unfold touches at 1. cbn [fst snd]. rewrite (proj2 (Nat.ltb_ge _ _)) by lia. apply IH. lia.
Qed.

Lemma spans_upto_past b off L : (b < off)%nat -> spans_upto b off L = [].
Proof.
  intros H. destruct L; [reflexivity|]. cbn [spans_upto].
  rewrite (proj2 (Nat.ltb_lt _ _) H). reflexivity.
Qed.

Lemma filter_spans_upto a b L : forall off, (a < off)%nat ->
  filter (touches a b) (spans_from off L) = spans_upto b off L.
Proof.
  induction L as [|l r IH]; intros off Ha; [reflexivity|].
  cbn [spans_from filter spans_upto]. unfold touches at 1. cbn [fst snd].
  rewrite (proj2 (Nat.ltb_lt _ _)), IH by lia. cbn [andb].
  destruct (Nat.leb_spec off b) as [Hle|Hgt].
  - rewrite (proj2 (Nat.ltb_ge _ _) Hle). reflexivity.
  - rewrite (proj2 (Nat.ltb_lt _ _) Hgt). apply spans_upto_past. lia.
Qed.

Lemma line_spans_at pre post : post <> [] ->
  line_spans (pre ++ post) =
  spans_from 0 (split_lines (upto_last_lf pre)) ++
  (length (encode (upto_last_lf pre)), length (encode pre) + length (encode (upto_lf post)))%nat
  :: spans_from (length (encode pre) + length (encode (upto_lf post))) (split_lines (after_lf post)).
Proof.
  intros Hne. unfold line_spans.
  replace (pre ++ post) with (upto_last_lf pre ++ after_last_lf pre ++ post)
    by (rewrite app_assoc, upto_after_last_lf; reflexivity).
  rewrite split_lines_complete, spans_from_app, concat_split_lines.
  rewrite (split_lines_unfold (after_last_lf pre ++ post))
    by (destruct (after_last_lf pre); [exact Hne|discriminate]).
  destruct (upto_lf_nolf_app (after_last_lf pre) post (Forall_rev (take_nolf_nolf _))) as [-> ->].
  cbn [spans_from Nat.add].
  rewrite (encode_length_app (after_last_lf pre)), Nat.add_assoc, <- (encode_length_app (upto_last_lf pre)),
    upto_after_last_lf.
  reflexivity.
Qed.

Lemma touched_lines_at cs pre post b : cs = pre ++ post -> (length (encode pre) <= b)%nat ->
  filter (touches (length (encode pre)) b) (line_spans cs) = lines_at b pre post.
Proof.
  intros -> Hab. unfold lines_at.
  destruct (split_lines post) as [|l L] eqn:E.
  - apply split_lines_nil in E. subst post. rewrite app_nil_r.
    apply filter_spans_before. rewrite concat_split_lines. apply le_n.
  - assert (Hne : post <> []) by (intros ->; discriminate E).
    rewrite (split_lines_unfold post Hne) in E. injection E as <- <-.
    pose proof (upto_lf_nonempty post Hne) as HT.
    pose proof (encode_length_app (upto_last_lf pre) (after_last_lf pre)) as HU. rewrite upto_after_last_lf in HU.
    (* of the three parts of line_spans_at the first end too early, the line around the boundary is
       touched, and the others start after the boundary *)
    rewrite (line_spans_at pre post Hne), filter_app, filter_spans_before
      by (rewrite concat_split_lines, HU; apply Nat.le_add_r).
    cbn [app filter]. unfold touches at 1. cbn [fst snd].
    rewrite (proj2 (Nat.ltb_lt _ _)), (proj2 (Nat.leb_le _ _)), (proj2 (Nat.ltb_ge _ _) Hab) by lia.
    cbn [andb]. rewrite filter_spans_upto by lia. reflexivity.
Qed.

Theorem lines_span_correct : forall cs i j, valid_str cs -> (i <= j)%nat ->
  lines_span (encode cs) (boff cs i, boff cs j) =
  LOk (lines_span_spec cs (boff cs i) (boff cs j)).
Proof.
  intros cs i j Hv Hij. unfold lines_span, lines_span_spec. cbn [fst].
  pose proof (eq_sym (firstn_skipn i cs)) as Hcs.
  change (boff cs i) with (length (encode (firstn i cs))).
  rewrite (touched_lines_at cs _ _ _ Hcs (boff_mono cs i j Hij)).
  apply (ls_collect_lines_at cs _ _ Hv _ _ _ _ eq_refl Hcs).
  apply (f_equal (fun l => length (encode l))) in Hcs. rewrite encode_length_app in Hcs.
  rewrite Hcs. apply Nat.le_add_l.
Qed.

Lemma ls_next_valid s sp pos it pos' : ls_next s sp pos = Some (it, pos') ->
  valid_span s (fst it) (snd it) = true.
Proof.
  unfold ls_next. destruct (snd sp <? pos)%nat; [discriminate|].
  destruct (pos_new s pos) as [p|]; [|discriminate].
  destruct (p =? length s)%nat; [discriminate|].
  rewrite span_new_spec.
  destruct (valid_span s (find_line_start s p) (find_line_end s p)) eqn:E; [|discriminate].
  intros [= <- _]. exact E.
Qed.

Lemma ls_collect_valid s sp : forall fuel pos l, ls_collect fuel s sp pos = LOk l ->
  Forall (fun it => valid_span s (fst it) (snd it) = true) l.
Proof.
  induction fuel as [|f IH]; intros pos l H; cbn [ls_collect] in H.
  - destruct (ls_next s sp pos) as [[it pos']|]; [discriminate|]. inversion H. constructor.
  - destruct (ls_next s sp pos) as [[it pos']|] eqn:En; [|inversion H; constructor].
    destruct (ls_collect f s sp pos') as [r| | | |] eqn:Ec; try discriminate.
    inversion H; subst. constructor; [eapply ls_next_valid; eassumption|eapply IH; eassumption].
Qed.

Definition slice_of (s : list byte) (sp : nat * nat) : list byte :=
  firstn (snd sp - fst sp) (skipn (fst sp) s).

Lemma map_as_str_valid s l : Forall (fun it => valid_span s (fst it) (snd it) = true) l ->
  map_as_str s l = LOk (map (slice_of s) l).
Proof.
  induction l as [|[x y] r IH]; intros H; [reflexivity|].
  inversion H as [|? ? Hx Hr]; subst. cbn [map_as_str map fst snd] in *.
  rewrite (as_str_valid s x y Hx), (IH Hr). reflexivity.
Qed.

Theorem lines_correct : forall cs i j, valid_str cs -> (i <= j)%nat ->
  lines (encode cs) (boff cs i, boff cs j) =
  LOk (map (slice_of (encode cs)) (lines_span_spec cs (boff cs i) (boff cs j))).
Proof.
  intros cs i j Hv Hij. unfold lines.
  pose proof (lines_span_correct cs i j Hv Hij) as H. rewrite H.
  apply map_as_str_valid. unfold lines_span in H. eapply ls_collect_valid. exact H.
Qed.
