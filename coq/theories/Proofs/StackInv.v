(* Representation invariant of pest::Stack under properly nested snapshot ... restore pairs,
   relative to the ghost list of the cache contents saved by the open snapshots. *)
From Coq Require Import List Arith Lia.
From PT Require Import Model.Base Model.Stack.
Import ListNotations.

(* [gs]: for every open snapshot (innermost first) the cache content [g] at the time it was taken.
   Its bottom [r] entries are still the bottom of the cache; the [l - r] above them have been popped
   since and head [popped], last popped first: what [s_restore] puts back. *)
Fixpoint SInvL (c p : list span) (ls : list (nat * nat)) (gs : list (list span)) : Prop :=
  match ls, gs with
  | [], [] => True
  | (l, r) :: ls', g :: gs' =>
      l = length g /\ r <= l /\ r <= length c /\
      keep_bottom r c = keep_bottom r g /\
      exists p', p = rev (firstn (l - r) g) ++ p' /\ SInvL g p' ls' gs'
  | _, _ => False
  end.

Definition SInv (s : stack) (gs : list (list span)) : Prop :=
  SInvL (cache s) (popped s) (lengths s) gs.

Lemma sinv_new : SInv stack_new [].
Proof. exact I. Qed.

Lemma s_index_all s : s_index s 0 (s_len s) = MOk (rev (cache s)).
Proof.
  unfold s_index, s_len. cbn [Nat.leb]. rewrite Nat.leb_refl. cbn [andb skipn].
  rewrite Nat.sub_0_r. rewrite <- rev_length. rewrite firstn_all. reflexivity.
Qed.

Lemma keep_bottom_cons {A} r (x : A) c : r <= length c -> keep_bottom r (x :: c) = keep_bottom r c.
Proof.
  intros H. unfold keep_bottom. cbn [length].
  replace (S (length c) - r) with (S (length c - r)) by lia. reflexivity.
Qed.

Lemma keep_bottom_all {A} (c : list A) : keep_bottom (length c) c = c.
Proof. unfold keep_bottom. rewrite Nat.sub_diag. reflexivity. Qed.

Lemma keep_bottom_length {A} r (c : list A) : r <= length c -> length (keep_bottom r c) = r.
Proof. intros H. unfold keep_bottom. rewrite skipn_length. lia. Qed.

Lemma sinv_push x s gs : SInv s gs -> SInv (s_push x s) gs.
Proof.
  unfold SInv, s_push. cbn [cache popped lengths].
  destruct (lengths s) as [|[l r] ls]; destruct gs as [|g gs]; cbn [SInvL]; try tauto.
  intros (Hl & Hrl & Hrc & Hk & p' & Hp & Hi).
  repeat split; try assumption.
  - cbn [length]. lia.
  - rewrite keep_bottom_cons by assumption. assumption.
  - exists p'. split; assumption.
Qed.

(* the element a pop removes when it reaches into the snapshot's content *)
Lemma skipn_cons {A} k : forall (g : list A) x rest,
  skipn k g = x :: rest -> rev (firstn (S k) g) = x :: rev (firstn k g) /\ skipn (S k) g = rest.
Proof.
  induction k as [|k IH]; intros [|y g] x rest H; try discriminate.
  - injection H as -> ->. split; reflexivity.
  - destruct (IH g x rest H) as [H1 H2]. split; [|exact H2].
    rewrite !firstn_cons. cbn [rev]. rewrite H1. reflexivity.
Qed.

Lemma sinv_pop s gs :
  SInv s gs ->
  match cache s with
  | [] => s_pop s = (None, s)
  | x :: c' => exists s', s_pop s = (Some x, s') /\ cache s' = c' /\ SInv s' gs
  end.
Proof.
  unfold SInv, s_pop. destruct s as [c p ls]. cbn [cache popped lengths].
  destruct c as [|x c']; [reflexivity|].
  destruct ls as [|[l r] ls]; destruct gs as [|g gs]; cbn [SInvL]; try tauto.
  - intros _. eexists. split; [reflexivity|]. cbn. tauto.
  - intros (Hl & Hrl & Hrc & Hk & p' & Hp & Hi).
    destruct (Nat.eqb_spec (length (x :: c')) r) as [He|Hne].
    + (* the pop reaches into the content saved by the innermost snapshot *)
      eexists. split; [reflexivity|]. cbn [cache popped lengths SInvL]. split; [reflexivity|].
      subst r. rewrite keep_bottom_all in Hk. unfold keep_bottom in Hk. rewrite <- Hl in Hk.
      destruct (skipn_cons _ _ _ _ (eq_sym Hk)) as [Hf Hs].
      cbn [length] in *. rewrite Nat.sub_succ, Nat.sub_0_r.
      assert (Hd : l - length c' = S (l - S (length c'))) by lia.
      split; [exact Hl|]. split; [lia|]. split; [apply le_n|]. split.
      * rewrite keep_bottom_all. unfold keep_bottom. rewrite <- Hl, Hd. symmetry. exact Hs.
      * exists p'. split; [|exact Hi]. rewrite Hd, Hf, Hp. reflexivity.
    + eexists. split; [reflexivity|]. cbn [cache popped lengths SInvL]. split; [reflexivity|].
      cbn [length] in *.
      repeat split; try lia.
      * rewrite keep_bottom_cons in Hk by lia. assumption.
      * exists p'. split; assumption.
Qed.

Lemma sinv_snapshot s gs : SInv s gs -> SInv (s_snapshot s) (cache s :: gs).
Proof.
  unfold SInv, s_snapshot, s_len. cbn [cache popped lengths SInvL]. intros H.
  repeat split; try lia.
  exists (popped s). rewrite Nat.sub_diag. cbn. split; [reflexivity|assumption].
Qed.

Lemma cache_snapshot s : cache (s_snapshot s) = cache s.
Proof. reflexivity. Qed.

Lemma sinv_restore s g gs :
  SInv s (g :: gs) -> exists s', s_restore s = MOk s' /\ cache s' = g /\ SInv s' gs.
Proof.
  unfold SInv, s_restore. destruct s as [c p ls]. cbn [cache popped lengths].
  destruct ls as [|[l r] ls]; cbn [SInvL]; [tauto|].
  intros (Hl & Hrl & Hrc & Hk & p' & Hp & Hi).
  set (c1 := if r <? length c then keep_bottom r c else c).
  assert (Hc1 : c1 = keep_bottom r g).
  { unfold c1. destruct (Nat.ltb_spec r (length c)) as [Hlt|Hge]; [assumption|].
    assert (r = length c) by lia. subst r. rewrite keep_bottom_all in Hk. assumption. }
  assert (Hfl : length (firstn (l - r) g) = l - r) by (rewrite firstn_length; lia).
  destruct (Nat.ltb_spec r l) as [Hlt|Hge].
  - assert (Hle : (l - r <=? length p) = true).
    { apply Nat.leb_le. rewrite Hp, app_length, rev_length, Hfl. lia. }
    rewrite Hle. eexists. split; [reflexivity|]. cbn [cache popped lengths].
    rewrite Hp.
    rewrite firstn_app, rev_length, Hfl, Nat.sub_diag. cbn [firstn]. rewrite app_nil_r.
    rewrite firstn_all2 by (rewrite rev_length; lia). rewrite rev_involutive.
    rewrite skipn_app, rev_length, Hfl, Nat.sub_diag. cbn [skipn].
    rewrite skipn_all2 by (rewrite rev_length; lia). cbn [app].
    assert (Hg : firstn (l - r) g ++ c1 = g).
    { rewrite Hc1. unfold keep_bottom. rewrite <- Hl. apply firstn_skipn. }
    unfold SInv. cbn [cache popped lengths]. rewrite Hg. split; [reflexivity|assumption].
  - assert (r = l) by lia. subst r.
    eexists. split; [reflexivity|]. cbn [cache popped lengths].
    rewrite Nat.sub_diag in Hp. cbn in Hp. subst p.
    assert (Hg : c1 = g) by (rewrite Hc1, Hl; apply keep_bottom_all).
    unfold SInv. cbn [cache popped lengths]. rewrite Hg. split; [reflexivity|assumption].
Qed.

Lemma sinv_pop_all_fuel n : forall s gs,
  SInv s gs -> length (cache s) <= n ->
  SInv (s_pop_all_fuel n s) gs /\ cache (s_pop_all_fuel n s) = [].
Proof.
  induction n as [|n IH]; intros s gs Hi Hn.
  - cbn. split; [assumption|]. destruct (cache s); [reflexivity|cbn in Hn; lia].
  - cbn [s_pop_all_fuel]. pose proof (sinv_pop s gs Hi) as Hp.
    destruct (cache s) as [|x c'] eqn:Hc.
    + rewrite Hp. split; assumption.
    + destruct Hp as (s' & Hs & Hc' & Hi'). rewrite Hs.
      apply IH; [assumption|]. rewrite Hc'. cbn in Hn. lia.
Qed.

Lemma sinv_pop_all s gs : SInv s gs -> SInv (s_pop_all s) gs /\ cache (s_pop_all s) = [].
Proof. intros H. apply sinv_pop_all_fuel; [assumption|]. unfold s_len. lia. Qed.

Lemma sinv_push_list l : forall s gs,
  SInv s gs ->
  SInv (fold_left (fun acc x => s_push x acc) l s) gs /\
  cache (fold_left (fun acc x => s_push x acc) l s) = rev l ++ cache s.
Proof.
  induction l as [|x l IH]; intros s gs Hi; cbn [fold_left].
  - split; [assumption|reflexivity].
  - destruct (IH (s_push x s) gs (sinv_push x s gs Hi)) as [H1 H2]. split; [assumption|].
    rewrite H2. cbn [s_push cache rev]. rewrite <- app_assoc. reflexivity.
Qed.

(* what the repaired restore_on_none does on failure: the saved content is back *)
Lemma sinv_reinstall saved s gs :
  SInv s gs ->
  SInv (s_push_all saved (s_pop_all s)) gs /\ cache (s_push_all saved (s_pop_all s)) = saved.
Proof.
  intros Hi. destruct (sinv_pop_all s gs Hi) as [H1 H2].
  destruct (sinv_push_list (rev saved) _ gs H1) as [H3 H4]. split; [exact H3|].
  unfold s_push_all. rewrite H4, H2, rev_involutive, app_nil_r. reflexivity.
Qed.
