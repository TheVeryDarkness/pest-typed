(* C06: the stack built-ins. Concrete facts about the real parse path (graceful failure) and the
   stack effects / matching order on the reference interpreter (which the parse path refines, C05). *)
From Coq Require Import List ZArith Lia.
From PT Require Import Model.Base Model.Stack Model.Texpr Model.SliceSpec Model.Sem Model.Aparse Proofs.ListFacts.
Import ListNotations.

Lemma norm_spec_bounds i len r : (0 <= len -> norm_spec i len = Some r -> 0 <= r <= len)%Z.
Proof.
  unfold norm_spec. intros Hl.
  destruct (Z.leb_spec 0 i); [destruct (Z.leb_spec i len)|destruct (Z.leb_spec 0 (len + i))];
    intros [= <-]; lia.
Qed.

Theorem slice_spec_in_bounds a b len s e :
  (0 <= len -> slice_spec a b len = Some (s, e) -> 0 <= s <= len /\ 0 <= e <= len)%Z.
Proof.
  unfold slice_spec. intros Hl.
  destruct (norm_spec a len) as [s'|] eqn:Hs; [|discriminate].
  apply (norm_spec_bounds _ _ _ Hl) in Hs.
  destruct b as [b'|]; [destruct (norm_spec b' len) as [e'|] eqn:He; [|discriminate]|].
  - apply (norm_spec_bounds _ _ _ Hl) in He. intros [= <- <-]. auto.
  - intros [= <- <-]. auto using Z.le_refl.
Qed.

(* graceful failure on the real parse path: a Fail with the special event, never a Panic *)
Lemma peek_empty E n inh pos st :
  cache (stk st) = [] -> tparse E (S n) inh TPeek pos st = Fail (ev (EEmptyStack pos) st).
Proof. intros H. cbn [tparse step_p]. unfold s_peek. rewrite H. reflexivity. Qed.

Lemma pop_empty E n inh pos st :
  cache (stk st) = [] -> tparse E (S n) inh TPop pos st = Fail (ev (EEmptyStack pos) st).
Proof. intros H. cbn [tparse step_p]. unfold s_pop. rewrite H. reflexivity. Qed.

Lemma drop_empty E n inh pos st :
  cache (stk st) = [] -> tparse E (S n) inh TDrop pos st = Fail (ev (EEmptyStack pos) st).
Proof. intros H. cbn [tparse step_p]. unfold s_pop. rewrite H. reflexivity. Qed.

Lemma slice_out_of_range E n inh a b pos st :
  slice_spec a b (Z.of_nat (length (cache (stk st)))) = None ->
  tparse E (S n) inh (TPeekSlice a b) pos st = Fail (ev (EOutOfBound pos a b) st).
Proof. intros H. cbn [tparse step_p]. unfold stack_slice, s_len. rewrite H. reflexivity. Qed.

(* an accepted slice never indexes outside the stack: `stack[range]` cannot panic *)
Lemma slice_index_safe st a b s e :
  slice_spec a b (Z.of_nat (length (cache (stk st)))) = Some (s, e) ->
  exists sps, stack_slice (stk st) a b = Some (MOk sps) /\
              sps = if (e <=? s)%Z then []
                    else firstn (Z.to_nat e - Z.to_nat s) (skipn (Z.to_nat s) (rev (cache (stk st)))).
Proof.
  intros Hs. unfold stack_slice, s_len. rewrite Hs.
  destruct (Z.leb_spec e s) as [Hle|Hlt]; [eexists; split; reflexivity|].
  pose proof (slice_spec_in_bounds a b _ s e (Nat2Z.is_nonneg _) Hs) as [Hs1 He1].
  unfold s_index, s_len.
  assert (H1 : (Z.to_nat s <=? Z.to_nat e)%nat = true) by (apply Nat.leb_le; lia).
  assert (H2 : (Z.to_nat e <=? length (cache (stk st)))%nat = true) by (apply Nat.leb_le; lia).
  rewrite H1, H2. eexists; split; reflexivity.
Qed.

Lemma Forall_slice {A} (Q : A -> Prop) l (s e : Z) : Forall Q l ->
  Forall Q (if (e <=? s)%Z then [] else firstn (Z.to_nat e - Z.to_nat s) (skipn (Z.to_nat s) (rev l))).
Proof. intros H. destruct (e <=? s)%Z; [constructor|]. apply Forall_firstn, Forall_skipn, Forall_rev, H. Qed.

Lemma stack_slice_a_slice st a b :
  stack_slice (stk st) a b = option_map MOk (a_slice (cache (stk st)) a b).
Proof.
  unfold a_slice. destruct (slice_spec a b _) as [[s e]|] eqn:Hs.
  - destruct (slice_index_safe st a b s e Hs) as (sps & -> & ->). destruct (e <=? s)%Z; reflexivity.
  - unfold stack_slice, s_len. rewrite Hs. reflexivity.
Qed.

Lemma alift_ok {X B} (m : mres X) (f : X -> ares B) a s :
  alift m f = AOk a s -> exists x, m = MOk x /\ f x = AOk a s.
Proof. destruct m as [x|]; [|discriminate]. intros H. exists x. split; [reflexivity|exact H]. Qed.

Lemma aleaf_ok m k a s : aleaf m k = AOk a s -> exists p, m = MOk (Some p) /\ k p = AOk a s.
Proof.
  intros H. apply alift_ok in H as ([p|] & -> & H); [|discriminate]. exists p. split; [reflexivity|exact H].
Qed.

(* the leaf of PEEK_ALL, POP_ALL and PEEK[a..b]: the texts of [sps] one after the other, then the span *)
Lemma a_spans_leaf_ok {X} E sps pos (sp : nat -> mres X) (nd : nat -> tnode) s1 p t s :
  aleaf (peek_spans E sps pos) (fun p' => alift (sp p') (fun _ => AOk (p', nd p') s1)) = AOk (p, t) s ->
  peek_spans E sps pos = MOk (Some p) /\ s = s1.
Proof.
  intros H. apply aleaf_ok in H as (p' & Hm & H). apply alift_ok in H as (_ & _ & H).
  injection H as <- _ <-. split; [exact Hm|reflexivity].
Qed.

(* PUSH(e) pushes exactly the span of everything e consumed (implicit skips inside e included) *)
Lemma a_push_effect E n inh e pos stk p t stk' :
  aparse E (S n) inh (TPush e) pos stk = AOk (p, t) stk' ->
  exists t1 stk1, aparse E n inh e pos stk = AOk (p, t1) stk1 /\ t = NPush t1 /\ stk' = (pos, p) :: stk1.
Proof.
  cbn [aparse a_step].
  destruct (aparse E n inh e pos stk) as [[p1 t1] s1| | |]; try discriminate.
  intros H. apply alift_ok in H as (sp & Hsp & H). injection H as <- <- <-.
  unfold i_span in Hsp. destruct (slice_opt (parent (e_inp E)) pos p1); [|discriminate].
  injection Hsp as <-. eexists _, _. repeat split.
Qed.

(* POP matches the top entry and removes exactly it; DROP removes it without matching *)
Lemma a_pop_effect E n inh pos stk p t stk' :
  aparse E (S n) inh TPop pos stk = AOk (p, t) stk' ->
  exists sp txt, stk = sp :: stk' /\ span_str (e_inp E) sp = MOk txt /\
                 i_match_string (e_inp E) txt pos = MOk (Some p) /\ t = NSpanned KPop (fst sp) (snd sp).
Proof.
  cbn [aparse a_step]. destruct stk as [|sp stk0]; [discriminate|]. intros H.
  apply alift_ok in H as (txt & Ht & H). apply aleaf_ok in H as (p' & Hm & H). injection H as <- <- <-.
  exists sp, txt. repeat split; assumption.
Qed.

Lemma a_peek_effect E n inh pos stk p t stk' :
  aparse E (S n) inh TPeek pos stk = AOk (p, t) stk' ->
  exists sp rest txt, stk = sp :: rest /\ stk' = stk /\ span_str (e_inp E) sp = MOk txt /\
                      i_match_string (e_inp E) txt pos = MOk (Some p).
Proof.
  cbn [aparse a_step]. destruct stk as [|sp stk0]; [discriminate|]. intros H.
  apply alift_ok in H as (txt & Ht & H). apply aleaf_ok in H as (p' & Hm & H).
  apply alift_ok in H as (_ & _ & H). injection H as <- _ <-.
  exists sp, stk0, txt. repeat split; assumption.
Qed.

Lemma a_drop_effect E n inh pos stk p t stk' :
  aparse E (S n) inh TDrop pos stk = AOk (p, t) stk' -> exists sp, stk = sp :: stk' /\ p = pos.
Proof.
  cbn [aparse a_step]. destruct stk as [|sp stk0]; [discriminate|].
  intros H. injection H as <- _ <-. exists sp. split; reflexivity.
Qed.

(* PEEK_ALL / POP_ALL match the entries top to bottom; POP_ALL empties the stack *)
Lemma a_peek_all_effect E n inh pos stk p t stk' :
  aparse E (S n) inh TPeekAll pos stk = AOk (p, t) stk' ->
  peek_spans E stk pos = MOk (Some p) /\ stk' = stk.
Proof. apply a_spans_leaf_ok. Qed.

Lemma a_pop_all_effect E n inh pos stk p t stk' :
  aparse E (S n) inh TPopAll pos stk = AOk (p, t) stk' ->
  peek_spans E stk pos = MOk (Some p) /\ stk' = [].
Proof. apply a_spans_leaf_ok. Qed.

(* PEEK[a..b]: entries a..b (normalised by the slice spec) bottom to top; the stack is unchanged;
   an empty or inverted range matches the empty text *)
Lemma a_slice_effect E n inh a b pos stk p t stk' :
  aparse E (S n) inh (TPeekSlice a b) pos stk = AOk (p, t) stk' ->
  exists s e, slice_spec a b (Z.of_nat (length stk)) = Some (s, e) /\ stk' = stk /\
    peek_spans E (if (e <=? s)%Z then []
                  else firstn (Z.to_nat e - Z.to_nat s) (skipn (Z.to_nat s) (rev stk))) pos = MOk (Some p).
Proof.
  cbn [aparse a_step]. unfold a_slice.
  destruct (slice_spec a b (Z.of_nat (length stk))) as [[s e]|]; [|discriminate].
  intros H. exists s, e. split; [reflexivity|].
  destruct (e <=? s)%Z; apply a_spans_leaf_ok in H as [Hp ->]; split; trivial.
Qed.

Lemma peek_spans_nil E pos : peek_spans E [] pos = MOk (Some pos).
Proof. reflexivity. Qed.

Lemma a_slice_invalid E n inh a b pos stk :
  slice_spec a b (Z.of_nat (length stk)) = None -> aparse E (S n) inh (TPeekSlice a b) pos stk = AFail.
Proof. intros H. cbn [aparse a_step]. unfold a_slice. rewrite H. reflexivity. Qed.
