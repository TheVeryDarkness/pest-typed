(* C06 on the REAL parse path.  Every effect theorem of Properties/C06.v (stated there on the reference
   interpreter [aparse], whose stack is an immutable [list span], top first) is restated here on [tparse]
   and [tcheck] (Model/Sem.v), whose stack is the bug-for-bug model of `pest::Stack` (Model/Stack.v):
   the logical stack is [cache (stk st)], top first; [SInv (stk st) gs] (Proofs/StackInv.v) is the
   representation invariant every reachable state satisfies.

   The stack built-ins are leaves of [step_p]/[step_c], so everything is proved directly from the one-step
   unfolding and the operation lemmas of StackInv.v; no hypothesis on the environment is needed (not even
   [fixed E]).  Only PUSH(e) has a sub-run; to carry [SInv] through that sub-run the refinement theorem is
   used ([fixed E] and a panic-free reference run, or the C09 hypotheses [env_ok]/[lits_ok]/[pre]).

   "Never Panic": the model panics (= debug assertion / checked slicing in the Rust code) exactly when
   `span.as_str()`, `input.get()` or `start.span(end)` do.  The [_total] theorems show that this cannot
   happen when the input is good, the cursor is good and the stack entries are good spans
   ([good_inp], [good_cur], [good_span] of Proofs/BoundaryOps.v -- what C09 proves of every reachable state).

   One statement one would expect is FALSE of the model (and of the Rust code): POP that fails on a *mismatch* does
   not leave the logical stack unchanged -- the entry has been popped ([real_pop_mismatch_pops]).  The
   enclosing restore_on_none gives it back ([real_opt_pop_mismatch_restores]). *)
From Coq Require Import List ZArith Bool Lia.
From PT Require Import Model.Base Model.Stack Model.Texpr Model.SliceSpec Model.Sem Model.Aparse.
From PT Require Import Proofs.StackInv Proofs.CheckParse Proofs.Refine Proofs.RefineCor.
From PT Require Import Proofs.ListFacts Proofs.BaseFacts Proofs.StackOps Proofs.BoundaryOps Proofs.Boundary Proofs.RefinePanic.
Import ListNotations.

(* the unconsumed text at [cur], without the boundary checks of `get()` *)
Definition raw_rest (I : inp) (cur : nat) : list byte :=
  firstn (i_end I - cur) (skipn cur (parent I)).

Lemma match_string_ok I txt pos o :
  i_match_string I txt pos = MOk o ->
  o = if is_prefix txt (raw_rest I pos) then Some (pos + length txt) else None.
Proof.
  unfold i_match_string. destruct (i_get I pos) as [r|] eqn:Hg; cbn [mbind]; [|discriminate].
  rewrite (i_get_eq I pos r Hg). intros [= <-]. reflexivity.
Qed.

Lemma with_stk_tr s st : tr (with_stk s st) = tr st.
Proof. reflexivity. Qed.

(* Every stack built-in that reads the input ends, on either path, in a leaf of one shape: a match [m] against
   the input, then possibly `start.span(end)` from the new cursor (a step [c] that returns or panics); on success
   the value [a p] comes back with the state [st1], on a mismatch the leaf fails with [st0].
   [leaf_match] and [leaf_check] of Model/Sem.v unfold to it. *)
Definition leaf {X A} (m : mres (option nat)) (c : nat -> mres X) (a : nat -> A) (st1 st0 : state) : res A :=
  lift m (fun o => match o with
                   | Some p => lift (c p) (fun _ => Ok (a p) st1)
                   | None => Fail st0
                   end).

Definition no_span (_ : nat) : mres unit := MOk tt.

Lemma leaf_ok {X A} m (c : nat -> mres X) (a : nat -> A) st1 st0 x st' :
  leaf m c a st1 st0 = Ok x st' -> exists p, m = MOk (Some p) /\ x = a p /\ st' = st1.
Proof.
  unfold leaf. destruct m as [[p|]|]; cbn [lift]; try discriminate.
  destruct (c p); cbn [lift]; [|discriminate]. intros [= <- <-]. exists p. repeat split.
Qed.

Lemma leaf_fail {X A} m (c : nat -> mres X) (a : nat -> A) st1 st0 st' :
  leaf m c a st1 st0 = Fail st' -> m = MOk None /\ st' = st0.
Proof.
  unfold leaf. destruct m as [[p|]|]; cbn [lift]; try discriminate.
  - destruct (c p); discriminate.
  - intros [= <-]. split; reflexivity.
Qed.

Lemma leaf_span_total {A} I pos m o (a : nat -> A) st1 st0 :
  good_inp I -> good_cur I pos -> m = MOk o -> (forall p, o = Some p -> pos <= p /\ good_cur I p) ->
  leaf m (i_span I pos) a st1 st0 = match o with Some p => Ok (a p) st1 | None => Fail st0 end.
Proof.
  intros HI Hc -> Hgo. destruct o as [p|]; [|reflexivity]. destruct (Hgo p eq_refl) as [Hle Hp].
  unfold leaf. cbn [lift]. rewrite (i_span_good I pos p HI Hc Hp Hle). reflexivity.
Qed.

(* the match of POP and PEEK: the text of one entry against the input at [pos] *)
Definition top_match (I : inp) (sp : span) (pos : nat) : mres (option nat) :=
  mbind (span_str I sp) (fun txt => i_match_string I txt pos).

Lemma lift_mbind {X Y A} (m : mres X) (f : X -> mres Y) (g : Y -> res A) :
  lift (mbind m f) g = lift m (fun x => lift (f x) g).
Proof. destruct m; reflexivity. Qed.

Lemma top_match_ok I sp pos o : top_match I sp pos = MOk o ->
  exists txt, span_str I sp = MOk txt /\ i_match_string I txt pos = MOk o.
Proof.
  unfold top_match. destruct (span_str I sp) as [txt|]; [|discriminate].
  intros H. exists txt. split; [reflexivity|exact H].
Qed.

Lemma top_match_good I sp pos : good_inp I -> good_cur I pos -> good_span I sp ->
  exists txt o, span_str I sp = MOk txt /\ i_match_string I txt pos = MOk o /\ top_match I sp pos = MOk o /\
                forall p, o = Some p -> pos <= p /\ good_cur I p.
Proof.
  intros HI Hc Hsp. destruct (span_str_good I sp HI Hsp) as (txt & Hs & Hv).
  destruct (match_string_good I txt pos HI Hc Hv) as (o & Hm & Hgo).
  exists txt, o. unfold top_match. rewrite Hs. repeat split; try assumption; apply Hgo; assumption.
Qed.

(* what PUSH(e) does after the sub-run of e, on either path: `start.span(end)`, then push *)
Lemma push_tail {A} I pos p (a x : A) st1 st' :
  lift (i_span I pos p) (fun sp => Ok a (with_stk (s_push sp (stk st1)) st1)) = Ok x st' ->
  x = a /\ cache (stk st') = (pos, p) :: cache (stk st1) /\ tr st' = tr st1 /\
  pos <= p /\ span_str I (pos, p) = MOk (firstn (p - pos) (skipn pos (parent I))) /\
  (forall gs, SInv (stk st1) gs -> SInv (stk st') gs).
Proof.
  destruct (i_span I pos p) as [sp|] eqn:Hsp; cbn [lift]; [|discriminate].
  pose proof (i_span_str _ _ _ _ Hsp) as Htxt. destruct (i_span_ok _ _ _ _ Hsp) as (-> & Hle). intros [= <- <-].
  cbn [stk with_stk s_push cache tr]. repeat split; try assumption. intros gs. apply sinv_push.
Qed.

(* C06_push_text on the real path.  The entry pushed is exactly the span [pos, p) from where e started
   to where e ended (so implicit skips *inside* e are included), its text is that slice of the input, it
   sits on top of the stack e left, and the representation invariant is kept. No hypothesis. *)
Lemma real_push_text E n inh e pos st p t st' :
  tparse E (S n) inh (TPush e) pos st = Ok (p, t) st' ->
  exists t1 st1, tparse E n inh e pos st = Ok (p, t1) st1 /\ t = NPush t1 /\
    cache (stk st') = (pos, p) :: cache (stk st1) /\ tr st' = tr st1 /\
    pos <= p /\ span_str (e_inp E) (pos, p) = MOk (firstn (p - pos) (skipn pos (parent (e_inp E)))) /\
    (forall gs, SInv (stk st1) gs -> SInv (stk st') gs).
Proof.
  cbn [tparse step_p]. destruct (tparse E n inh e pos st) as [[p1 t1] st1|st1| |]; try discriminate.
  intros ([= -> ->] & H)%push_tail. exists t1, st1. split; [reflexivity|]. split; [reflexivity|exact H].
Qed.

Lemma realc_push_text E n inh e pos st p st' :
  tcheck E (S n) inh (TPush e) pos st = Ok p st' ->
  exists st1, tcheck E n inh e pos st = Ok p st1 /\
    cache (stk st') = (pos, p) :: cache (stk st1) /\ tr st' = tr st1 /\
    pos <= p /\ span_str (e_inp E) (pos, p) = MOk (firstn (p - pos) (skipn pos (parent (e_inp E)))) /\
    (forall gs, SInv (stk st1) gs -> SInv (stk st') gs).
Proof.
  cbn [tcheck step_c]. destruct (tcheck E n inh e pos st) as [p1 st1|st1| |]; try discriminate.
  intros (-> & H)%push_tail. exists st1. split; [reflexivity|exact H].
Qed.

(* the check path of PUSH under the hypotheses of C09 (valid UTF-8 input and literals, good cursor and
   state): it returns the state the parse path returns *)
Theorem realc_push_inv_good E : fixed E -> env_ok E -> forall n inh e pos st gs p st',
  lits_ok e -> pre (e_inp E) pos st gs ->
  tcheck E (S n) inh (TPush e) pos st = Ok p st' ->
  exists t1 st1, tparse E (S n) inh (TPush e) pos st = Ok (p, NPush t1) st' /\
    tparse E n inh e pos st = Ok (p, t1) st1 /\ tcheck E n inh e pos st = Ok p st1 /\
    aparse E n inh e pos (cache (stk st)) = AOk (p, t1) (cache (stk st1)) /\
    cache (stk st') = (pos, p) :: cache (stk st1) /\ SInv (stk st1) gs /\ SInv (stk st') gs.
Proof.
  intros HF HE n inh e pos st gs p st' Hl Hpre Hc.
  rewrite (check_is_parse E _ _ _ _ _ (tparse_no_panic E HE (S n) inh (TPush e) pos st gs Hl Hpre)) in Hc.
  apply erase_ok in Hc as [t Ht].
  destruct (real_push_text E n inh e pos st p t st' Ht) as (t1 & st1 & Hsub & -> & Hc & _ & _ & _ & Hk).
  destruct (tparse_ok_aparse_good E HF HE n inh e pos st gs p t1 st1 Hl Hpre Hsub) as [Ha Hi1].
  exists t1, st1. split; [exact Ht|]. split; [exact Hsub|]. split; [|repeat split; try assumption; apply Hk, Hi1].
  rewrite check_is_parse; rewrite Hsub; [reflexivity|discriminate].
Qed.

Lemma pop_run E n inh pos st gs :
  SInv (stk st) gs ->
  match cache (stk st) with
  | [] => tparse E (S n) inh TPop pos st = Fail (ev (EEmptyStack pos) st) /\
          tcheck E (S n) inh TPop pos st = Fail (ev (EEmptyStack pos) st)
  | sp :: rest =>
      exists st1, cache (stk st1) = rest /\ tr st1 = tr st /\ SInv (stk st1) gs /\
        tparse E (S n) inh TPop pos st =
          leaf (top_match (e_inp E) sp pos) no_span (fun p => (p, NSpanned KPop (fst sp) (snd sp))) st1 st1 /\
        tcheck E (S n) inh TPop pos st = leaf (top_match (e_inp E) sp pos) no_span (fun p => p) st1 st1
  end.
Proof.
  intros Hi. pose proof (sinv_pop (stk st) gs Hi) as Hpop. cbn [tparse step_p tcheck step_c].
  destruct (cache (stk st)) as [|sp rest].
  - rewrite Hpop. split; reflexivity.
  - destruct Hpop as (s' & -> & Hc & Hi'). exists (with_stk s' st).
    repeat split; try assumption; symmetry; apply lift_mbind.
Qed.

(* C06_pop on the real path: POP succeeded -> the stack was non-empty, the input at pos starts with the
   text of its top entry, p = pos + |text|, exactly the top entry is gone, the invariant holds *)
Theorem real_pop E n inh pos st gs p t st' :
  SInv (stk st) gs ->
  tparse E (S n) inh TPop pos st = Ok (p, t) st' ->
  exists sp txt, cache (stk st) = sp :: cache (stk st') /\ span_str (e_inp E) sp = MOk txt /\
                 i_match_string (e_inp E) txt pos = MOk (Some p) /\ t = NSpanned KPop (fst sp) (snd sp) /\
                 p = pos + length txt /\ tr st' = tr st /\ SInv (stk st') gs.
Proof.
  intros Hi Ht. pose proof (pop_run E n inh pos st gs Hi) as H.
  destruct (cache (stk st)) as [|sp rest]; [rewrite (proj1 H) in Ht; discriminate|].
  destruct H as (st1 & <- & Htr & Hi1 & Hp & _). rewrite Hp in Ht.
  apply leaf_ok in Ht as (q & (txt & Hs & Hm)%top_match_ok & [= <- ->] & ->).
  exists sp, txt. repeat split; try assumption. exact (match_string_pos _ _ _ _ Hm).
Qed.

Theorem realc_pop E n inh pos st gs p st' :
  SInv (stk st) gs ->
  tcheck E (S n) inh TPop pos st = Ok p st' ->
  exists sp txt, cache (stk st) = sp :: cache (stk st') /\ span_str (e_inp E) sp = MOk txt /\
                 i_match_string (e_inp E) txt pos = MOk (Some p) /\
                 p = pos + length txt /\ tr st' = tr st /\ SInv (stk st') gs.
Proof.
  intros Hi Ht. pose proof (pop_run E n inh pos st gs Hi) as H.
  destruct (cache (stk st)) as [|sp rest]; [rewrite (proj2 H) in Ht; discriminate|].
  destruct H as (st1 & <- & Htr & Hi1 & _ & Hp). rewrite Hp in Ht.
  apply leaf_ok in Ht as (q & (txt & Hs & Hm)%top_match_ok & <- & ->).
  exists sp, txt. repeat split; try assumption. exact (match_string_pos _ _ _ _ Hm).
Qed.

(* POP succeeds with cursor p  iff  the stack is non-empty and the input at pos starts with the top text *)
Theorem real_pop_iff E n inh pos st gs p :
  SInv (stk st) gs ->
  ((exists t st', tparse E (S n) inh TPop pos st = Ok (p, t) st') <->
   (exists sp rest txt, cache (stk st) = sp :: rest /\ span_str (e_inp E) sp = MOk txt /\
                        i_match_string (e_inp E) txt pos = MOk (Some p))).
Proof.
  intros Hi. split.
  - intros (t & st' & Ht). destruct (real_pop E n inh pos st gs p t st' Hi Ht) as (sp & txt & Hc & Hs & Hm & _).
    exists sp, (cache (stk st')), txt. repeat split; assumption.
  - intros (sp & rest & txt & Hc & Hs & Hm). pose proof (pop_run E n inh pos st gs Hi) as H. rewrite Hc in H.
    destruct H as (st1 & _ & _ & _ & -> & _). unfold top_match. rewrite Hs. cbn [mbind]. rewrite Hm.
    eexists _, _. reflexivity.
Qed.

(* POP failed -> either the stack was empty (special event, state otherwise unchanged) or the top text
   does not match at pos.  In the second case THE ENTRY HAS BEEN POPPED: the logical stack of the failed
   state is the rest (see [real_pop_mismatch_pops]); the invariant holds. *)
Theorem real_pop_fail E n inh pos st gs st' :
  SInv (stk st) gs ->
  tparse E (S n) inh TPop pos st = Fail st' ->
  (cache (stk st) = [] /\ st' = ev (EEmptyStack pos) st) \/
  (exists sp txt, cache (stk st) = sp :: cache (stk st') /\ span_str (e_inp E) sp = MOk txt /\
                  i_match_string (e_inp E) txt pos = MOk None /\ tr st' = tr st /\ SInv (stk st') gs).
Proof.
  intros Hi Ht. pose proof (pop_run E n inh pos st gs Hi) as H.
  destruct (cache (stk st)) as [|sp rest].
  - left. rewrite (proj1 H) in Ht. injection Ht as <-. split; reflexivity.
  - right. destruct H as (st1 & <- & Htr & Hi1 & Hp & _). rewrite Hp in Ht.
    apply leaf_fail in Ht as [(txt & Hs & Hm)%top_match_ok ->]. exists sp, txt. repeat split; assumption.
Qed.

Theorem realc_pop_fail E n inh pos st gs st' :
  SInv (stk st) gs ->
  tcheck E (S n) inh TPop pos st = Fail st' ->
  (cache (stk st) = [] /\ st' = ev (EEmptyStack pos) st) \/
  (exists sp txt, cache (stk st) = sp :: cache (stk st') /\ span_str (e_inp E) sp = MOk txt /\
                  i_match_string (e_inp E) txt pos = MOk None /\ tr st' = tr st /\ SInv (stk st') gs).
Proof.
  intros Hi Ht. pose proof (pop_run E n inh pos st gs Hi) as H.
  destruct (cache (stk st)) as [|sp rest].
  - left. rewrite (proj2 H) in Ht. injection Ht as <-. split; reflexivity.
  - right. destruct H as (st1 & <- & Htr & Hi1 & _ & Hp). rewrite Hp in Ht.
    apply leaf_fail in Ht as [(txt & Hs & Hm)%top_match_ok ->]. exists sp, txt. repeat split; assumption.
Qed.

(* POP never panics and never runs out of fuel on a good input, a good cursor and good stack entries:
   the complete case analysis of what it returns *)
Theorem real_pop_total E n inh pos st gs :
  good_inp (e_inp E) -> good_cur (e_inp E) pos -> Forall (good_span (e_inp E)) (cache (stk st)) ->
  SInv (stk st) gs ->
  match cache (stk st) with
  | [] => tparse E (S n) inh TPop pos st = Fail (ev (EEmptyStack pos) st) /\
          tcheck E (S n) inh TPop pos st = Fail (ev (EEmptyStack pos) st)
  | sp :: rest =>
      exists txt o st1, span_str (e_inp E) sp = MOk txt /\ i_match_string (e_inp E) txt pos = MOk o /\
        cache (stk st1) = rest /\ tr st1 = tr st /\ SInv (stk st1) gs /\
        tparse E (S n) inh TPop pos st =
          match o with Some p => Ok (p, NSpanned KPop (fst sp) (snd sp)) st1 | None => Fail st1 end /\
        tcheck E (S n) inh TPop pos st =
          match o with Some p => Ok p st1 | None => Fail st1 end
  end.
Proof.
  intros HI Hcur Hgood Hi. pose proof (pop_run E n inh pos st gs Hi) as H.
  destruct (cache (stk st)) as [|sp rest]; [exact H|].
  destruct H as (st1 & Hc & Htr & Hi1 & Hp & Hq).
  destruct (top_match_good _ sp pos HI Hcur (Forall_inv Hgood)) as (txt & o & Hs & Hm & Ho & _).
  rewrite Ho in Hp, Hq. exists txt, o, st1. repeat split; assumption.
Qed.

Lemma peek_run E n inh pos st :
  match cache (stk st) with
  | [] => tparse E (S n) inh TPeek pos st = Fail (ev (EEmptyStack pos) st) /\
          tcheck E (S n) inh TPeek pos st = Fail (ev (EEmptyStack pos) st)
  | sp :: _ =>
      tparse E (S n) inh TPeek pos st =
        leaf (top_match (e_inp E) sp pos) (i_span (e_inp E) pos) (fun p => (p, NSpanned KPeek pos p)) st st /\
      tcheck E (S n) inh TPeek pos st = leaf (top_match (e_inp E) sp pos) no_span (fun p => p) st st
  end.
Proof.
  cbn [tparse step_p tcheck step_c]. unfold s_peek.
  destruct (cache (stk st)) as [|sp rest]; cbn [hd_error]; split; try reflexivity; symmetry; apply lift_mbind.
Qed.

(* C06_peek on the real path: the state (stack and tracker) is untouched *)
Theorem real_peek E n inh pos st p t st' :
  tparse E (S n) inh TPeek pos st = Ok (p, t) st' ->
  exists sp rest txt, cache (stk st) = sp :: rest /\ st' = st /\ span_str (e_inp E) sp = MOk txt /\
                      i_match_string (e_inp E) txt pos = MOk (Some p) /\
                      t = NSpanned KPeek pos p /\ p = pos + length txt.
Proof.
  intros Ht. pose proof (peek_run E n inh pos st) as H.
  destruct (cache (stk st)) as [|sp rest]; rewrite (proj1 H) in Ht; [discriminate|].
  apply leaf_ok in Ht as (q & (txt & Hs & Hm)%top_match_ok & [= <- ->] & ->).
  exists sp, rest, txt. repeat split; try assumption. exact (match_string_pos _ _ _ _ Hm).
Qed.

Theorem realc_peek E n inh pos st p st' :
  tcheck E (S n) inh TPeek pos st = Ok p st' ->
  exists sp rest txt, cache (stk st) = sp :: rest /\ st' = st /\ span_str (e_inp E) sp = MOk txt /\
                      i_match_string (e_inp E) txt pos = MOk (Some p) /\ p = pos + length txt.
Proof.
  intros Ht. pose proof (peek_run E n inh pos st) as H.
  destruct (cache (stk st)) as [|sp rest]; rewrite (proj2 H) in Ht; [discriminate|].
  apply leaf_ok in Ht as (q & (txt & Hs & Hm)%top_match_ok & <- & ->).
  exists sp, rest, txt. repeat split; try assumption. exact (match_string_pos _ _ _ _ Hm).
Qed.

(* PEEK failed -> empty stack (special event) or mismatch; the logical stack is unchanged in both cases *)
Theorem real_peek_fail E n inh pos st st' :
  tparse E (S n) inh TPeek pos st = Fail st' ->
  cache (stk st') = cache (stk st) /\
  ((cache (stk st) = [] /\ st' = ev (EEmptyStack pos) st) \/
   (exists sp rest txt, cache (stk st) = sp :: rest /\ st' = st /\ span_str (e_inp E) sp = MOk txt /\
                        i_match_string (e_inp E) txt pos = MOk None)).
Proof.
  intros Ht. pose proof (peek_run E n inh pos st) as H.
  destruct (cache (stk st)) as [|sp rest] eqn:Hc; rewrite (proj1 H) in Ht.
  - injection Ht as <-. split; [exact Hc|]. left. split; reflexivity.
  - apply leaf_fail in Ht as [(txt & Hs & Hm)%top_match_ok ->]. split; [exact Hc|]. right.
    exists sp, rest, txt. repeat split; assumption.
Qed.

Theorem realc_peek_fail E n inh pos st st' :
  tcheck E (S n) inh TPeek pos st = Fail st' ->
  cache (stk st') = cache (stk st) /\
  ((cache (stk st) = [] /\ st' = ev (EEmptyStack pos) st) \/
   (exists sp rest txt, cache (stk st) = sp :: rest /\ st' = st /\ span_str (e_inp E) sp = MOk txt /\
                        i_match_string (e_inp E) txt pos = MOk None)).
Proof.
  intros Ht. pose proof (peek_run E n inh pos st) as H.
  destruct (cache (stk st)) as [|sp rest] eqn:Hc; rewrite (proj2 H) in Ht.
  - injection Ht as <-. split; [exact Hc|]. left. split; reflexivity.
  - apply leaf_fail in Ht as [(txt & Hs & Hm)%top_match_ok ->]. split; [exact Hc|]. right.
    exists sp, rest, txt. repeat split; assumption.
Qed.

Theorem real_peek_total E n inh pos st :
  good_inp (e_inp E) -> good_cur (e_inp E) pos -> Forall (good_span (e_inp E)) (cache (stk st)) ->
  match cache (stk st) with
  | [] => tparse E (S n) inh TPeek pos st = Fail (ev (EEmptyStack pos) st) /\
          tcheck E (S n) inh TPeek pos st = Fail (ev (EEmptyStack pos) st)
  | sp :: _ =>
      exists txt o, span_str (e_inp E) sp = MOk txt /\ i_match_string (e_inp E) txt pos = MOk o /\
        tparse E (S n) inh TPeek pos st =
          match o with Some p => Ok (p, NSpanned KPeek pos p) st | None => Fail st end /\
        tcheck E (S n) inh TPeek pos st =
          match o with Some p => Ok p st | None => Fail st end
  end.
Proof.
  intros HI Hcur Hgood. pose proof (peek_run E n inh pos st) as H.
  destruct (cache (stk st)) as [|sp rest]; [exact H|]. destruct H as [-> ->].
  destruct (top_match_good _ sp pos HI Hcur (Forall_inv Hgood)) as (txt & o & Hs & Hm & Ho & Hgo).
  exists txt, o. split; [exact Hs|]. split; [exact Hm|].
  split; [exact (leaf_span_total _ pos _ o _ st st HI Hcur Ho Hgo)|]. rewrite Ho. reflexivity.
Qed.

(* DROP never inspects the input: complete description, no hypothesis but the invariant *)
Theorem real_drop_total E n inh pos st gs :
  SInv (stk st) gs ->
  match cache (stk st) with
  | [] => tparse E (S n) inh TDrop pos st = Fail (ev (EEmptyStack pos) st) /\
          tcheck E (S n) inh TDrop pos st = Fail (ev (EEmptyStack pos) st)
  | sp :: rest =>
      exists st1, cache (stk st1) = rest /\ tr st1 = tr st /\ SInv (stk st1) gs /\
        tparse E (S n) inh TDrop pos st = Ok (pos, NDrop) st1 /\
        tcheck E (S n) inh TDrop pos st = Ok pos st1
  end.
Proof.
  intros Hi. pose proof (sinv_pop (stk st) gs Hi) as Hpop. cbn [tparse step_p tcheck step_c].
  destruct (cache (stk st)) as [|sp rest].
  - rewrite Hpop. split; reflexivity.
  - destruct Hpop as (s' & -> & Hc & Hi'). exists (with_stk s' st). repeat split; assumption.
Qed.

(* C06_drop on the real path *)
Theorem real_drop E n inh pos st gs p t st' :
  SInv (stk st) gs ->
  tparse E (S n) inh TDrop pos st = Ok (p, t) st' ->
  exists sp, cache (stk st) = sp :: cache (stk st') /\ p = pos /\ t = NDrop /\
             tr st' = tr st /\ SInv (stk st') gs.
Proof.
  intros Hi Ht. pose proof (real_drop_total E n inh pos st gs Hi) as H.
  destruct (cache (stk st)) as [|sp rest]; [rewrite (proj1 H) in Ht; discriminate|].
  destruct H as (st1 & <- & Htr & Hi1 & H & _). rewrite H in Ht. injection Ht as <- <- <-.
  exists sp. repeat split; assumption.
Qed.

Theorem realc_drop E n inh pos st gs p st' :
  SInv (stk st) gs ->
  tcheck E (S n) inh TDrop pos st = Ok p st' ->
  exists sp, cache (stk st) = sp :: cache (stk st') /\ p = pos /\ tr st' = tr st /\ SInv (stk st') gs.
Proof.
  intros Hi Ht. pose proof (real_drop_total E n inh pos st gs Hi) as H.
  destruct (cache (stk st)) as [|sp rest]; [rewrite (proj2 H) in Ht; discriminate|].
  destruct H as (st1 & <- & Htr & Hi1 & _ & H). rewrite H in Ht. injection Ht as <- <-.
  exists sp. repeat split; assumption.
Qed.

Theorem real_drop_fail E n inh pos st gs st' :
  SInv (stk st) gs ->
  tparse E (S n) inh TDrop pos st = Fail st' -> cache (stk st) = [] /\ st' = ev (EEmptyStack pos) st.
Proof.
  intros Hi Ht. pose proof (real_drop_total E n inh pos st gs Hi) as H.
  destruct (cache (stk st)) as [|sp rest].
  - rewrite (proj1 H) in Ht. injection Ht as <-. split; reflexivity.
  - destruct H as (st1 & _ & _ & _ & H & _). rewrite H in Ht. discriminate.
Qed.

Definition texts_of (I : inp) (sps : list span) (txts : list (list byte)) : Prop :=
  Forall2 (fun sp txt => span_str I sp = MOk txt) sps txts.

Lemma raw_rest_skip I pos l : raw_rest I (pos + l) = skipn l (raw_rest I pos).
Proof.
  unfold raw_rest. rewrite skipn_firstn_comm, skipn_skipn, (Nat.add_comm l), Nat.sub_add_distr. reflexivity.
Qed.

Lemma is_prefix_nil r : is_prefix [] r = true.
Proof. destruct r; reflexivity. Qed.

Lemma is_prefix_app_split txt : forall c r,
  is_prefix (txt ++ c) r = is_prefix txt r && is_prefix c (skipn (length txt) r).
Proof.
  induction txt as [|x txt IH]; intros c r.
  - cbn [app length skipn]. rewrite is_prefix_nil. reflexivity.
  - destruct r as [|y r]; cbn [app is_prefix length skipn]; [reflexivity|].
    rewrite IH. rewrite andb_assoc. reflexivity.
Qed.

Lemma peek_spans_concat E : forall sps txts, texts_of (e_inp E) sps txts -> forall pos o,
  peek_spans E sps pos = MOk o ->
  o = if is_prefix (concat txts) (raw_rest (e_inp E) pos)
      then Some (pos + length (concat txts)) else None.
Proof.
  intros sps txts H. induction H as [|sp txt sps txts Hs _ IH]; intros pos o; cbn [peek_spans concat].
  - intros [= <-]. rewrite is_prefix_nil. cbn [length]. rewrite Nat.add_0_r. reflexivity.
  - rewrite Hs. cbn [mbind].
    destruct (i_match_string (e_inp E) txt pos) as [o1|] eqn:Hm; cbn [mbind]; [|discriminate].
    rewrite (match_string_ok _ _ _ _ Hm), is_prefix_app_split.
    destruct (is_prefix txt _); cbn [andb]; [|intros [= <-]; reflexivity].
    intros Ho. rewrite (IH _ _ Ho), raw_rest_skip, app_length, Nat.add_assoc. reflexivity.
Qed.

Lemma peek_spans_some_texts E : forall sps pos p,
  peek_spans E sps pos = MOk (Some p) -> exists txts, texts_of (e_inp E) sps txts.
Proof.
  induction sps as [|sp sps IH]; intros pos p; cbn [peek_spans].
  - intros _. exists []. constructor.
  - destruct (span_str (e_inp E) sp) as [txt|] eqn:Hs; cbn [mbind]; [|discriminate].
    destruct (i_match_string (e_inp E) txt pos) as [[p'|]|]; cbn [mbind]; try discriminate.
    intros H. destruct (IH _ _ H) as (txts & Ht). exists (txt :: txts). constructor; assumption.
Qed.

Corollary peek_spans_some_concat E sps pos p :
  peek_spans E sps pos = MOk (Some p) ->
  exists txts, texts_of (e_inp E) sps txts /\
    is_prefix (concat txts) (raw_rest (e_inp E) pos) = true /\ p = pos + length (concat txts).
Proof.
  intros H. destruct (peek_spans_some_texts E sps pos p H) as (txts & Ht). exists txts.
  split; [exact Ht|]. pose proof (peek_spans_concat E sps txts Ht pos _ H) as Ho.
  destruct (is_prefix (concat txts) (raw_rest (e_inp E) pos)); inversion Ho. split; reflexivity.
Qed.

Lemma texts_exist I sps : good_inp I -> Forall (good_span I) sps -> exists txts, texts_of I sps txts.
Proof.
  intros HI H. induction H as [|sp sps Hsp _ (txts & Ht)]; [exists []; constructor|].
  destruct (span_str_good I sp HI Hsp) as (txt & Hs & _). exists (txt :: txts). constructor; assumption.
Qed.

(* PEEK_ALL, POP_ALL and PEEK[a..b] are a leaf over [peek_spans].  On a good input, from a good cursor and
   over good spans it never panics, on either path; the verdict is "the unconsumed input starts with the
   concatenation of the spans' texts" *)
Lemma spans_leaf_total E sps pos (nd : nat -> tnode) st1 st0 :
  good_inp (e_inp E) -> good_cur (e_inp E) pos -> Forall (good_span (e_inp E)) sps ->
  exists txts o, texts_of (e_inp E) sps txts /\
    peek_spans E sps pos = MOk o /\
    o = (if is_prefix (concat txts) (raw_rest (e_inp E) pos)
         then Some (pos + length (concat txts)) else None) /\
    leaf (peek_spans E sps pos) (i_span (e_inp E) pos) (fun p => (p, nd p)) st1 st0 =
      match o with Some p => Ok (p, nd p) st1 | None => Fail st0 end /\
    leaf (peek_spans E sps pos) (i_span (e_inp E) pos) (fun p => p) st1 st0 =
      match o with Some p => Ok p st1 | None => Fail st0 end.
Proof.
  intros HI Hcur Hgood.
  destruct (texts_exist _ _ HI Hgood) as (txts & Ht).
  destruct (peek_spans_good E HI _ pos Hgood Hcur) as (o & Ho & Hgo).
  exists txts, o. split; [exact Ht|]. split; [exact Ho|].
  split; [exact (peek_spans_concat E _ _ Ht pos o Ho)|].
  split; apply leaf_span_total; assumption.
Qed.

Lemma peek_all_run E n inh pos st :
  tparse E (S n) inh TPeekAll pos st =
    leaf (peek_spans E (cache (stk st)) pos) (i_span (e_inp E) pos) (fun p => (p, NSpanned KPeekAll pos p)) st st /\
  tcheck E (S n) inh TPeekAll pos st =
    leaf (peek_spans E (cache (stk st)) pos) (i_span (e_inp E) pos) (fun p => p) st st.
Proof.
  cbn [tparse step_p tcheck step_c]. rewrite s_index_all. cbn [lift]. rewrite rev_involutive.
  split; reflexivity.
Qed.

Lemma pop_all_run E n inh pos st :
  tparse E (S n) inh TPopAll pos st =
    leaf (peek_spans E (cache (stk st)) pos) (i_span (e_inp E) pos) (fun p => (p, NSpanned KPopAll pos p))
         (with_stk (s_pop_all (stk st)) st) st /\
  tcheck E (S n) inh TPopAll pos st =
    leaf (peek_spans E (cache (stk st)) pos) (i_span (e_inp E) pos) (fun p => p)
         (with_stk (s_pop_all (stk st)) st) st.
Proof.
  cbn [tparse step_p tcheck step_c]. rewrite s_index_all. cbn [lift]. rewrite rev_involutive.
  split; reflexivity.
Qed.

(* C06_peek_all on the real path: the entries are matched top to bottom (= list order of the cache);
   the state is untouched *)
Theorem real_peek_all E n inh pos st p t st' :
  tparse E (S n) inh TPeekAll pos st = Ok (p, t) st' ->
  peek_spans E (cache (stk st)) pos = MOk (Some p) /\ st' = st /\ t = NSpanned KPeekAll pos p.
Proof.
  rewrite (proj1 (peek_all_run E n inh pos st)). intros (q & Hp & [= <- ->] & ->)%leaf_ok.
  split; [exact Hp|]. split; reflexivity.
Qed.

Theorem realc_peek_all E n inh pos st p st' :
  tcheck E (S n) inh TPeekAll pos st = Ok p st' ->
  peek_spans E (cache (stk st)) pos = MOk (Some p) /\ st' = st.
Proof.
  rewrite (proj2 (peek_all_run E n inh pos st)). intros (q & Hp & <- & ->)%leaf_ok.
  split; [exact Hp|reflexivity].
Qed.

Theorem real_peek_all_fail E n inh pos st st' :
  tparse E (S n) inh TPeekAll pos st = Fail st' ->
  peek_spans E (cache (stk st)) pos = MOk None /\ st' = st.
Proof. rewrite (proj1 (peek_all_run E n inh pos st)). apply leaf_fail. Qed.

Theorem realc_peek_all_fail E n inh pos st st' :
  tcheck E (S n) inh TPeekAll pos st = Fail st' ->
  peek_spans E (cache (stk st)) pos = MOk None /\ st' = st.
Proof. rewrite (proj2 (peek_all_run E n inh pos st)). apply leaf_fail. Qed.

(* C06_pop_all on the real path: same match, the logical stack becomes empty, the invariant is kept *)
Theorem real_pop_all E n inh pos st gs p t st' :
  SInv (stk st) gs ->
  tparse E (S n) inh TPopAll pos st = Ok (p, t) st' ->
  peek_spans E (cache (stk st)) pos = MOk (Some p) /\ cache (stk st') = [] /\
  t = NSpanned KPopAll pos p /\ tr st' = tr st /\ SInv (stk st') gs.
Proof.
  intros [Hi Hc]%sinv_pop_all. rewrite (proj1 (pop_all_run E n inh pos st)).
  intros (q & Hp & [= <- ->] & ->)%leaf_ok. repeat split; assumption.
Qed.

Theorem realc_pop_all E n inh pos st gs p st' :
  SInv (stk st) gs ->
  tcheck E (S n) inh TPopAll pos st = Ok p st' ->
  peek_spans E (cache (stk st)) pos = MOk (Some p) /\ cache (stk st') = [] /\
  tr st' = tr st /\ SInv (stk st') gs.
Proof.
  intros [Hi Hc]%sinv_pop_all. rewrite (proj2 (pop_all_run E n inh pos st)).
  intros (q & Hp & <- & ->)%leaf_ok. repeat split; assumption.
Qed.

(* POP_ALL that fails has popped nothing: the whole state is the one before (no half-popped stack) *)
Theorem real_pop_all_fail E n inh pos st st' :
  tparse E (S n) inh TPopAll pos st = Fail st' ->
  peek_spans E (cache (stk st)) pos = MOk None /\ st' = st.
Proof. rewrite (proj1 (pop_all_run E n inh pos st)). apply leaf_fail. Qed.

Theorem realc_pop_all_fail E n inh pos st st' :
  tcheck E (S n) inh TPopAll pos st = Fail st' ->
  peek_spans E (cache (stk st)) pos = MOk None /\ st' = st.
Proof. rewrite (proj2 (pop_all_run E n inh pos st)). apply leaf_fail. Qed.

(* complete description on good inputs: never Panic, never Fuel; the verdict is "the unconsumed input starts
   with the concatenation of the entries' texts, top entry first" *)
Theorem real_peek_all_total E n inh pos st :
  good_inp (e_inp E) -> good_cur (e_inp E) pos -> Forall (good_span (e_inp E)) (cache (stk st)) ->
  exists txts o, texts_of (e_inp E) (cache (stk st)) txts /\
    peek_spans E (cache (stk st)) pos = MOk o /\
    o = (if is_prefix (concat txts) (raw_rest (e_inp E) pos)
         then Some (pos + length (concat txts)) else None) /\
    tparse E (S n) inh TPeekAll pos st =
      match o with Some p => Ok (p, NSpanned KPeekAll pos p) st | None => Fail st end /\
    tcheck E (S n) inh TPeekAll pos st =
      match o with Some p => Ok p st | None => Fail st end.
Proof. destruct (peek_all_run E n inh pos st) as [-> ->]. apply spans_leaf_total. Qed.

Theorem real_pop_all_total E n inh pos st gs :
  good_inp (e_inp E) -> good_cur (e_inp E) pos -> Forall (good_span (e_inp E)) (cache (stk st)) ->
  SInv (stk st) gs ->
  exists txts o st1, texts_of (e_inp E) (cache (stk st)) txts /\
    peek_spans E (cache (stk st)) pos = MOk o /\
    o = (if is_prefix (concat txts) (raw_rest (e_inp E) pos)
         then Some (pos + length (concat txts)) else None) /\
    cache (stk st1) = [] /\ tr st1 = tr st /\ SInv (stk st1) gs /\
    tparse E (S n) inh TPopAll pos st =
      match o with Some p => Ok (p, NSpanned KPopAll pos p) st1 | None => Fail st end /\
    tcheck E (S n) inh TPopAll pos st =
      match o with Some p => Ok p st1 | None => Fail st end.
Proof.
  intros HI Hcur Hgood [Hi Hc]%sinv_pop_all. destruct (pop_all_run E n inh pos st) as [-> ->].
  destruct (spans_leaf_total E _ pos (NSpanned KPopAll pos) (with_stk (s_pop_all (stk st)) st) st HI Hcur Hgood)
    as (txts & o & Ht & Ho & Hcat & H).
  exists txts, o, (with_stk (s_pop_all (stk st)) st). repeat split; try assumption; apply H.
Qed.

(* the entries a normalised range (s, e) selects: [rev c] is the stack bottom first (as the Vec is
   indexed), so these are the entries number s .. e-1 counted from the BOTTOM, in bottom-to-top order;
   an empty or inverted range selects nothing *)
Definition slice_entries (c : list span) (s e : Z) : list span :=
  if (e <=? s)%Z then [] else firstn (Z.to_nat e - Z.to_nat s) (skipn (Z.to_nat s) (rev c)).

Definition slice_node (b : option Z) : tnode :=
  NSlice (match b with Some _ => true | None => false end).

Lemma slice_run E n inh a b pos st :
  match slice_spec a b (Z.of_nat (length (cache (stk st)))) with
  | None => tparse E (S n) inh (TPeekSlice a b) pos st = Fail (ev (EOutOfBound pos a b) st) /\
            tcheck E (S n) inh (TPeekSlice a b) pos st = Fail (ev (EOutOfBound pos a b) st)
  | Some (s, e) =>
      tparse E (S n) inh (TPeekSlice a b) pos st =
        leaf (peek_spans E (slice_entries (cache (stk st)) s e) pos) (i_span (e_inp E) pos)
             (fun p => (p, slice_node b)) st st /\
      tcheck E (S n) inh (TPeekSlice a b) pos st =
        leaf (peek_spans E (slice_entries (cache (stk st)) s e) pos) (i_span (e_inp E) pos) (fun p => p) st st
  end.
Proof.
  cbn [tparse step_p tcheck step_c].
  destruct (slice_spec a b (Z.of_nat (length (cache (stk st))))) as [[s e]|] eqn:Hs.
  - destruct (slice_index_safe st a b s e Hs) as (sps & -> & ->). split; reflexivity.
  - unfold stack_slice, s_len. rewrite Hs. split; reflexivity.
Qed.

(* C06_peek_slice on the real path (same shape): the range is valid, the selected entries are matched in
   bottom-to-top order, the state is untouched *)
Theorem real_peek_slice E n inh a b pos st p t st' :
  tparse E (S n) inh (TPeekSlice a b) pos st = Ok (p, t) st' ->
  exists s e, slice_spec a b (Z.of_nat (length (cache (stk st)))) = Some (s, e) /\ st' = st /\
    peek_spans E (if (e <=? s)%Z then []
                  else firstn (Z.to_nat e - Z.to_nat s) (skipn (Z.to_nat s) (rev (cache (stk st))))) pos
      = MOk (Some p) /\
    t = slice_node b.
Proof.
  intros Ht. pose proof (slice_run E n inh a b pos st) as H.
  destruct (slice_spec a b _) as [[s e]|]; rewrite (proj1 H) in Ht; [|discriminate].
  apply leaf_ok in Ht as (q & Hp & [= <- ->] & ->). exists s, e. repeat split. exact Hp.
Qed.

Theorem realc_peek_slice E n inh a b pos st p st' :
  tcheck E (S n) inh (TPeekSlice a b) pos st = Ok p st' ->
  exists s e, slice_spec a b (Z.of_nat (length (cache (stk st)))) = Some (s, e) /\ st' = st /\
    peek_spans E (if (e <=? s)%Z then []
                  else firstn (Z.to_nat e - Z.to_nat s) (skipn (Z.to_nat s) (rev (cache (stk st))))) pos
      = MOk (Some p).
Proof.
  intros Ht. pose proof (slice_run E n inh a b pos st) as H.
  destruct (slice_spec a b _) as [[s e]|]; rewrite (proj2 H) in Ht; [|discriminate].
  apply leaf_ok in Ht as (q & Hp & <- & ->). exists s, e. repeat split. exact Hp.
Qed.

(* C06_slice_invalid on the real path: an out-of-range slice is a Fail with the special event, on both
   paths, for every state (no hypothesis); the stack is untouched *)
Theorem real_slice_invalid E n inh a b pos st :
  slice_spec a b (Z.of_nat (length (cache (stk st)))) = None ->
  tparse E (S n) inh (TPeekSlice a b) pos st = Fail (ev (EOutOfBound pos a b) st) /\
  tcheck E (S n) inh (TPeekSlice a b) pos st = Fail (ev (EOutOfBound pos a b) st).
Proof. intros H. pose proof (slice_run E n inh a b pos st) as Hr. rewrite H in Hr. exact Hr. Qed.

(* PEEK[a..b] failed -> out of range (special event) or mismatch; the stack is unchanged in every case *)
Theorem real_peek_slice_fail E n inh a b pos st st' :
  tparse E (S n) inh (TPeekSlice a b) pos st = Fail st' ->
  stk st' = stk st /\
  ((slice_spec a b (Z.of_nat (length (cache (stk st)))) = None /\ st' = ev (EOutOfBound pos a b) st) \/
   (exists s e, slice_spec a b (Z.of_nat (length (cache (stk st)))) = Some (s, e) /\ st' = st /\
                peek_spans E (slice_entries (cache (stk st)) s e) pos = MOk None)).
Proof.
  intros Ht. pose proof (slice_run E n inh a b pos st) as H.
  destruct (slice_spec a b _) as [[s e]|]; rewrite (proj1 H) in Ht.
  - apply leaf_fail in Ht as [Hp ->]. split; [reflexivity|]. right. exists s, e. repeat split. exact Hp.
  - injection Ht as <-. split; [reflexivity|]. left. split; reflexivity.
Qed.

Theorem realc_peek_slice_fail E n inh a b pos st st' :
  tcheck E (S n) inh (TPeekSlice a b) pos st = Fail st' ->
  stk st' = stk st /\
  ((slice_spec a b (Z.of_nat (length (cache (stk st)))) = None /\ st' = ev (EOutOfBound pos a b) st) \/
   (exists s e, slice_spec a b (Z.of_nat (length (cache (stk st)))) = Some (s, e) /\ st' = st /\
                peek_spans E (slice_entries (cache (stk st)) s e) pos = MOk None)).
Proof.
  intros Ht. pose proof (slice_run E n inh a b pos st) as H.
  destruct (slice_spec a b _) as [[s e]|]; rewrite (proj2 H) in Ht.
  - apply leaf_fail in Ht as [Hp ->]. split; [reflexivity|]. right. exists s, e. repeat split. exact Hp.
  - injection Ht as <-. split; [reflexivity|]. left. split; reflexivity.
Qed.

(* complete description on good inputs: never Panic, never Fuel *)
Theorem real_peek_slice_total E n inh a b pos st :
  good_inp (e_inp E) -> good_cur (e_inp E) pos -> Forall (good_span (e_inp E)) (cache (stk st)) ->
  match slice_spec a b (Z.of_nat (length (cache (stk st)))) with
  | None => tparse E (S n) inh (TPeekSlice a b) pos st = Fail (ev (EOutOfBound pos a b) st) /\
            tcheck E (S n) inh (TPeekSlice a b) pos st = Fail (ev (EOutOfBound pos a b) st)
  | Some (s, e) =>
      exists txts o, texts_of (e_inp E) (slice_entries (cache (stk st)) s e) txts /\
        peek_spans E (slice_entries (cache (stk st)) s e) pos = MOk o /\
        o = (if is_prefix (concat txts) (raw_rest (e_inp E) pos)
             then Some (pos + length (concat txts)) else None) /\
        tparse E (S n) inh (TPeekSlice a b) pos st =
          match o with Some p => Ok (p, slice_node b) st | None => Fail st end /\
        tcheck E (S n) inh (TPeekSlice a b) pos st =
          match o with Some p => Ok p st | None => Fail st end
  end.
Proof.
  intros HI Hcur Hgood. pose proof (slice_run E n inh a b pos st) as H.
  destruct (slice_spec a b _) as [[s e]|]; [|exact H]. destruct H as [-> ->].
  apply (spans_leaf_total E _ pos (fun _ => slice_node b) st st HI Hcur), Forall_slice, Hgood.
Qed.

(* an empty (or inverted) valid range succeeds without consuming and without touching the state *)
Theorem real_peek_slice_empty E n inh a b pos st s e :
  good_inp (e_inp E) -> good_cur (e_inp E) pos ->
  slice_spec a b (Z.of_nat (length (cache (stk st)))) = Some (s, e) -> (e <= s)%Z ->
  tparse E (S n) inh (TPeekSlice a b) pos st = Ok (pos, slice_node b) st /\
  tcheck E (S n) inh (TPeekSlice a b) pos st = Ok pos st.
Proof.
  intros HI Hcur Hs Hes%Z.leb_le. pose proof (slice_run E n inh a b pos st) as H. rewrite Hs in H.
  destruct H as [-> ->]. unfold slice_entries. rewrite Hes. cbn [peek_spans].
  assert (Hgo : forall p, Some pos = Some p -> pos <= p /\ good_cur (e_inp E) p)
    by (intros p [= <-]; split; [apply le_n|exact Hcur]).
  split; exact (leaf_span_total _ pos _ (Some pos) _ st st HI Hcur eq_refl Hgo).
Qed.

Lemma norm_spec_nonneg i len : (0 <= i <= len)%Z -> norm_spec i len = Some i.
Proof.
  intros H. unfold norm_spec.
  destruct (Z.leb_spec 0 i); [|lia]. destruct (Z.leb_spec i len); [reflexivity|lia].
Qed.

(* a negative index counts from the top: -1 is "just below the top entry's upper edge", i.e. len - 1 *)
Lemma norm_spec_neg i len : (- len <= i < 0)%Z -> norm_spec i len = Some (len + i)%Z.
Proof.
  intros H. unfold norm_spec.
  destruct (Z.leb_spec 0 i); [lia|]. destruct (Z.leb_spec 0 (len + i)); [reflexivity|lia].
Qed.

Lemma norm_spec_out i len : (len < i \/ i < - len)%Z -> (0 <= len)%Z -> norm_spec i len = None.
Proof.
  intros H Hl. unfold norm_spec.
  destruct (Z.leb_spec 0 i).
  - destruct (Z.leb_spec i len); [lia|reflexivity].
  - destruct (Z.leb_spec 0 (len + i)); [lia|reflexivity].
Qed.

(* entries s .. e-1 from the bottom = the entries at depth len-e .. len-s-1 from the top, deepest first *)
Lemma slice_entries_top_first c s e :
  (0 <= s)%Z -> (s < e)%Z -> (e <= Z.of_nat (length c))%Z ->
  slice_entries c s e = rev (skipn (length c - Z.to_nat e) (firstn (length c - Z.to_nat s) c)).
Proof.
  intros H0 Hse Hel. unfold slice_entries. rewrite (proj2 (Z.leb_gt e s) Hse).
  apply rev_window; lia.
Qed.

(* PEEK[-k..] : the top k entries, matched deepest first *)
Lemma slice_neg_top c k : 0 < k <= length c ->
  slice_spec (- Z.of_nat k) None (Z.of_nat (length c))
    = Some ((Z.of_nat (length c) - Z.of_nat k)%Z, Z.of_nat (length c)) /\
  slice_entries c (Z.of_nat (length c) - Z.of_nat k) (Z.of_nat (length c)) = rev (firstn k c).
Proof.
  intros [Hk Hkl]. split.
  - unfold slice_spec. rewrite norm_spec_neg by lia. reflexivity.
  - rewrite slice_entries_top_first by lia.
    rewrite <- Nat2Z.inj_sub, !Nat2Z.id, Nat.sub_diag by exact Hkl.
    rewrite (Nat.add_sub_eq_l _ _ k (Nat.sub_add _ _ Hkl)). reflexivity.
Qed.

(* end to end: a successful PEEK[-k..] on a stack of at least k entries matched the top k entries, the
   deepest of them first, and left the state alone *)
Corollary real_peek_slice_neg_top E n inh k pos st p t st' :
  0 < k <= length (cache (stk st)) ->
  tparse E (S n) inh (TPeekSlice (- Z.of_nat k) None) pos st = Ok (p, t) st' ->
  peek_spans E (rev (firstn k (cache (stk st)))) pos = MOk (Some p) /\ st' = st.
Proof.
  intros Hk Ht. destruct (real_peek_slice E n inh _ _ pos st p t st' Ht) as (s & e & Hs & -> & Hp & _).
  destruct (slice_neg_top (cache (stk st)) k Hk) as [Hs' He]. rewrite Hs' in Hs. injection Hs as <- <-.
  unfold slice_entries in He. rewrite He in Hp. split; [exact Hp|reflexivity].
Qed.

(* PEEK[..k] (written PEEK[0..k]): the bottom k entries, bottom first *)
Lemma slice_bottom c k : k <= length c ->
  slice_spec 0 (Some (Z.of_nat k)) (Z.of_nat (length c)) = Some (0%Z, Z.of_nat k) /\
  slice_entries c 0 (Z.of_nat k) = rev (skipn (length c - k) c).
Proof.
  intros Hk. split.
  - unfold slice_spec. rewrite !norm_spec_nonneg by lia. reflexivity.
  - unfold slice_entries. destruct (Z.leb_spec (Z.of_nat k) 0) as [Hx|Hx].
    + assert (k = 0) by lia. subst k. rewrite Nat.sub_0_r, skipn_all. reflexivity.
    + cbn [Z.to_nat skipn]. rewrite Nat.sub_0_r, Nat2Z.id, firstn_rev. reflexivity.
Qed.

(* "ab": PUSH("a") leaves [(0,1)]; POP at offset 1 sees "b", fails -- and the entry is gone.  The Rust code
   does the same (`stack.pop()` precedes `match_string`); only the enclosing restore_on_none repairs it. *)
Lemma real_pop_mismatch_pops :
  exists E n inh pos st gs st',
    fixed E /\ SInv (stk st) gs /\
    tparse E (S n) inh TPop pos st = Fail st' /\ cache (stk st) = [(0, 1)] /\ cache (stk st') = [].
Proof.
  exists (w_env true [97; 98]%N), 0, true, 1, (mk_state (mk_stack [(0, 1)] [] []) []), [].
  eexists. split; [repeat split|]. split; [exact I|]. vm_compute. repeat split.
Qed.

(* ... and that state is reachable: it is the one PUSH("a") produces from the initial state *)
Example real_pop_mismatch_reachable :
  match tparse (w_env true [97; 98]%N) 3 true (TPush (TStr [97%N])) 0 st0 with
  | Ok (p, _) st =>
      p = 1 /\ cache (stk st) = [(0, 1)] /\
      match tparse (w_env true [97; 98]%N) 3 true TPop p st with
      | Fail st' => cache (stk st') = []
      | _ => False
      end
  | _ => False
  end.
Proof. vm_compute. repeat split. Qed.

(* restore_on_none (repaired: [e_ron_fixed]) puts the content back after a failure *)
Lemma opt_of_fail E n inh e pos st st1 :
  e_ron_fixed E = true -> tparse E n inh e pos st = Fail st1 ->
  tparse E (S n) inh (TOpt e) pos st =
    Ok (pos, NOpt None) (with_stk (s_push_all (cache (stk st)) (s_pop_all (stk st1))) st1).
Proof. intros Hf Ht. cbn [tparse step_p]. rewrite (ron_fixed_match _ _ _ _ _ Hf), Ht. reflexivity. Qed.

(* so POP? (and likewise any alternative / iteration around a failing POP) leaves no trace *)
Theorem real_opt_pop_mismatch_restores E n inh pos st gs st1 :
  e_ron_fixed E = true -> SInv (stk st) gs ->
  tparse E (S n) inh TPop pos st = Fail st1 ->
  exists st2, tparse E (S (S n)) inh (TOpt TPop) pos st = Ok (pos, NOpt None) st2 /\
              cache (stk st2) = cache (stk st) /\ SInv (stk st2) gs.
Proof.
  intros Hf Hi Ht.
  assert (Hi1 : SInv (stk st1) gs).
  { destruct (real_pop_fail E n inh pos st gs st1 Hi Ht) as [[_ ->]|(sp & txt & _ & _ & _ & _ & H)];
      [exact Hi|exact H]. }
  eexists. split; [exact (opt_of_fail E (S n) inh TPop pos st st1 Hf Ht)|].
  destruct (sinv_reinstall (cache (stk st)) (stk st1) gs Hi1) as [H1 H2]. split; assumption.
Qed.

(* run the expressions one after the other on the real path, recording cursor and logical stack after each *)
Fixpoint run_steps (E : env) (fuel : nat) (es : list texpr) (pos : nat) (st : state)
  : list (option (nat * list span)) :=
  match es with
  | [] => []
  | e :: es' =>
      match tparse E fuel true e pos st with
      | Ok (p, _) st' => Some (p, cache (stk st')) :: run_steps E fuel es' p st'
      | _ => [None]
      end
  end.

(* input "abbba":  PUSH("a") ~ PUSH("b") ~ PEEK[-1..] ~ POP_ALL
     PUSH("a")   -> cursor 1, stack [ (0,1) ]
     PUSH("b")   -> cursor 2, stack [ (1,2); (0,1) ]            (top first)
     PEEK[-1..]  -> matches the top entry "b", cursor 3, stack unchanged
     POP_ALL     -> matches "b" then "a" (top to bottom), cursor 5, stack empty *)
Example real_run_steps :
  run_steps (w_env true [97; 98; 98; 98; 97]%N) 4
    [TPush (TStr [97%N]); TPush (TStr [98%N]); TPeekSlice (-1) None; TPopAll] 0 st0
  = [Some (1, [(0, 1)]); Some (2, [(1, 2); (0, 1)]); Some (3, [(1, 2); (0, 1)]); Some (5, [])].
Proof. vm_compute. reflexivity. Qed.

(* the same as one sequence, parse and check path *)
Example real_run_seq :
  match tparse (w_env true [97; 98; 98; 98; 97]%N) 5 true
          (TSeq SkOff [TPush (TStr [97%N]); TPush (TStr [98%N]); TPeekSlice (-1) None; TPopAll]) 0 st0,
        tcheck (w_env true [97; 98; 98; 98; 97]%N) 5 true
          (TSeq SkOff [TPush (TStr [97%N]); TPush (TStr [98%N]); TPeekSlice (-1) None; TPopAll]) 0 st0 with
  | Ok (p, _) st', Ok p' st'' => p = 5 /\ cache (stk st') = [] /\ p' = 5 /\ cache (stk st'') = []
  | _, _ => False
  end.
Proof. vm_compute. repeat split. Qed.

(* on "abbbb" POP_ALL does not match ("b" then "a" against "bb"): it fails and the stack still holds both
   entries (no half-popped stack); an out-of-range PEEK[-3..] fails too, stack unchanged *)
Example real_run_fail :
  run_steps (w_env true [97; 98; 98; 98; 98]%N) 4
    [TPush (TStr [97%N]); TPush (TStr [98%N]); TPeekSlice (-1) None; TPopAll] 0 st0
  = [Some (1, [(0, 1)]); Some (2, [(1, 2); (0, 1)]); Some (3, [(1, 2); (0, 1)]); None] /\
  match tparse (w_env true [97; 98; 98; 98; 98]%N) 4 true TPopAll 3
          (mk_state (mk_stack [(1, 2); (0, 1)] [] []) []) with
  | Fail st' => cache (stk st') = [(1, 2); (0, 1)]
  | _ => False
  end /\
  match tparse (w_env true [97; 98; 98; 98; 98]%N) 4 true (TPeekSlice (-3) None) 3
          (mk_state (mk_stack [(1, 2); (0, 1)] [] []) []) with
  | Fail st' => cache (stk st') = [(1, 2); (0, 1)] /\ tr st' = [EOutOfBound 3 (-3) None]
  | _ => False
  end.
Proof. vm_compute. repeat split. Qed.
