(* C08: parsing a sub-input (Span(s,a,b) / Position(s,a)) is parsing the fresh text s[a..b] with every
   offset shifted by a.  Byte level and stack level facts are in Proofs/SubInputOps.v; this file lifts
   them through both interpreters (same architecture as CheckParse.v / Refine.v) and the entry points.
   Complete: every construct of [texpr] is covered, no exclusion. *)
From Coq Require Import List ZArith Bool.
From PT Require Import Model.Base Model.Stack Model.Texpr Model.SliceSpec Model.Sem Model.Tok Model.Tokens.
From PT Require Import Proofs.BaseFacts Proofs.SubInputOps.
Import ListNotations.

Fixpoint shift_node (a : nat) (t : tnode) : tnode :=
  match t with
  | NInsens s e => NInsens (s + a) (e + a)
  | NSpanned k s e => NSpanned k (s + a) (e + a)
  | NSeq items => NSeq (map (fun it => (map (shift_node a) (fst it), shift_node a (snd it))) items)
  | NChoice n i t1 => NChoice n i (shift_node a t1)
  | NOpt o => NOpt (match o with Some t1 => Some (shift_node a t1) | None => None end)
  | NRep bd items => NRep bd (map (fun it => (map (shift_node a) (fst it), shift_node a (snd it))) items)
  | NAtomicRep items => NAtomicRep (map (shift_node a) items)
  | NPos t1 => NPos (shift_node a t1)
  | NPush t1 => NPush (shift_node a t1)
  | NArr l => NArr (map (shift_node a) l)
  | NPair x y => NPair (shift_node a x) (shift_node a y)
  | NRule r content sp =>
      NRule r (match content with Some c => Some (shift_node a c) | None => None end)
            (option_map (shift_span a) sp)
  | NStr | NChar _ _ | NSoi | NEoi | NNewline _ | NNeg | NDrop | NSlice _ | NEmpty => t
  end.

Definition shift_item (a : nat) (it : list tnode * tnode) : list tnode * tnode :=
  (map (shift_node a) (fst it), shift_node a (snd it)).

Definition shift_event (a : nat) (e : event) : event :=
  match e with
  | EEnter r pos => EEnter r (pos + a)
  | EExit r pos ok => EExit r (pos + a) ok
  | EPol p => EPol p
  | EPolEnd => EPolEnd
  | EEmptyStack pos => EEmptyStack (pos + a)
  | EOutOfBound pos x y => EOutOfBound (pos + a) x y
  end.

Definition shift_stack (a : nat) (s : stack) : stack := map_stack (shift_span a) s.

Definition shift_state (a : nat) (st : state) : state :=
  mk_state (shift_stack a (stk st)) (map (shift_event a) (tr st)).

Definition shift_res_with {A} (sh : A -> A) (a : nat) (r : res A) : res A :=
  match r with
  | Ok x st => Ok (sh x) (shift_state a st)
  | Fail st => Fail (shift_state a st)
  | Panic => Panic
  | Fuel => Fuel
  end.

Definition sh_pair {X} (a : nat) (g : X -> X) (x : nat * X) : nat * X := (fst x + a, g (snd x)).

(* results of tparse / tcheck / try_parse / try_check *)
Definition shift_pres (a : nat) : res (nat * tnode) -> res (nat * tnode) :=
  shift_res_with (sh_pair a (shift_node a)) a.
Definition shift_cres (a : nat) : res nat -> res nat := shift_res_with (shift_cur a) a.
Definition shift_tres (a : nat) : res tnode -> res tnode := shift_res_with (shift_node a) a.
Definition shift_ures (a : nat) : res unit -> res unit := shift_res_with (fun u => u) a.

Definition span_ok (n : nat) (sp : span) : Prop := fst sp <= snd sp /\ snd sp <= n.
Definition state_ok (n : nat) (st : state) : Prop := stack_all (span_ok n) (stk st).

Definition res_ok {A} (okA : A -> Prop) (n : nat) (r : res A) : Prop :=
  match r with
  | Ok x st => okA x /\ state_ok n st
  | Fail st => state_ok n st
  | Panic => True
  | Fuel => True
  end.

Definition cur_ok {X} (n : nat) (x : nat * X) : Prop := fst x <= n.

(* run on the sub-input = shifted run on the fresh text, and the fresh run keeps the invariant *)
Definition sim {A} (a n : nat) (sh : A -> A) (okA : A -> Prop) (r2 r0 : res A) : Prop :=
  r2 = shift_res_with sh a r0 /\ res_ok okA n r0.

(* the two environments: same grammar, same switches; only the input differs.  [e_su_cut] is not
   compared: the theorems ask for the repaired skip_until ([true]) on either side *)
Definition env_agree (s : list byte) (a b : nat) (E2 E0 : env) : Prop :=
  sub_of (e_inp E2) s a b /\ e_inp E0 = inp_of_str (sub_slice s a b) /\
  e_rules E2 = e_rules E0 /\ e_skip E2 = e_skip E0 /\ e_pred E2 = e_pred E0 /\
  e_eoi E2 = e_eoi E0 /\ e_ron_fixed E2 = e_ron_fixed E0 /\ e_rep_min_after E2 = e_rep_min_after E0.

Definition with_inp (E : env) (I : inp) : env :=
  mk_env I (e_rules E) (e_skip E) (e_pred E) (e_eoi E) (e_ron_fixed E) (e_su_cut E) (e_rep_min_after E).

Lemma env_agree_with_inp s a b E I2 :
  sub_of I2 s a b -> e_inp E = inp_of_str (sub_slice s a b) -> env_agree s a b (with_inp E I2) E.
Proof. intros H2 H0. unfold env_agree, with_inp. cbn. repeat split; try assumption; apply H2. Qed.

Lemma state_ok0 n : state_ok n st0.
Proof. apply stack_all_new. Qed.

Lemma sim_intro {A} a n (sh : A -> A) okA r2 r0 :
  r2 = shift_res_with sh a r0 -> res_ok okA n r0 -> sim a n sh okA r2 r0.
Proof. intros H1 H2. split; assumption. Qed.

(* with both runs in sight the first half holds by computation and the invariant is among the
   hypotheses (alone after a failure, with the bound on the cursor after a success) *)
Ltac by_sim :=
  apply sim_intro; [reflexivity | first [assumption | split; [trivial | assumption] | exact I]].

Section Rules.
  Variables a n : nat.
  Local Notation sst := (shift_state a).
  Local Notation simP := (sim a n (sh_pair a (shift_node a)) (cur_ok n)).
  Local Notation simC := (sim a n (shift_cur a) (fun p => p <= n)).

  (* [sim] is compositional: every combinator of Sem.v continues a run by a [match] of this shape, so
     related runs with related continuations give related results *)
  Lemma sim_match {A B} (shA : A -> A) okA (shB : B -> B) okB r2 r0 (k2 k0 : A -> state -> res B) f2 f0 :
    sim a n shA okA r2 r0 ->
    (forall x st, okA x -> state_ok n st -> sim a n shB okB (k2 (shA x) (sst st)) (k0 x st)) ->
    (forall st, state_ok n st -> sim a n shB okB (f2 (sst st)) (f0 st)) ->
    sim a n shB okB (match r2 with Ok x st => k2 x st | Fail st => f2 st | Panic => Panic | Fuel => Fuel end)
                    (match r0 with Ok x st => k0 x st | Fail st => f0 st | Panic => Panic | Fuel => Fuel end).
  Proof.
    intros [-> Hok] Hk Hf. destruct r0 as [x st|st| |]; cbn [shift_res_with];
      [apply Hk; apply Hok|apply Hf, Hok|now split..].
  Qed.

  (* the same where the run returns a cursor with a payload and the continuation takes the pair apart *)
  Lemma sim_match_pair {X B} (g : X -> X) (shB : B -> B) okB r2 r0 (k2 k0 : nat -> X -> state -> res B) f2 f0 :
    sim a n (sh_pair a g) (cur_ok n) r2 r0 ->
    (forall p x st, p <= n -> state_ok n st -> sim a n shB okB (k2 (p + a) (g x) (sst st)) (k0 p x st)) ->
    (forall st, state_ok n st -> sim a n shB okB (f2 (sst st)) (f0 st)) ->
    sim a n shB okB (match r2 with Ok (p, x) st => k2 p x st | Fail st => f2 st | Panic => Panic | Fuel => Fuel end)
                    (match r0 with Ok (p, x) st => k0 p x st | Fail st => f0 st | Panic => Panic | Fuel => Fuel end).
  Proof.
    intros [-> Hok] Hk Hf. destruct r0 as [[p x] st|st| |]; cbn [shift_res_with sh_pair fst snd];
      [apply Hk; apply Hok|apply Hf, Hok|now split..].
  Qed.

  Lemma lift_sim {X A} (sh : A -> A) okA (g : X -> X) (m0 : mres X) (f2 f0 : X -> res A) :
    (forall x, m0 = MOk x -> sim a n sh okA (f2 (g x)) (f0 x)) ->
    sim a n sh okA (lift (mmap g m0) f2) (lift m0 f0).
  Proof. intros H. destruct m0 as [x|]; [now apply H|now split]. Qed.

  Definition mrel {T} (g : T -> T) (pos : T -> nat) (m2 m0 : mres (option T)) : Prop :=
    m2 = mmap (option_map g) m0 /\ forall x, m0 = MOk (Some x) -> pos x <= n.

  Lemma opt_sim {T A} (g : T -> T) pos (sh : A -> A) okA m2 m0 (k2 k0 : T -> res A) f2 f0 :
    mrel g pos m2 m0 ->
    (forall x, pos x <= n -> sim a n sh okA (k2 (g x)) (k0 x)) ->
    sim a n sh okA f2 f0 ->
    sim a n sh okA (lift m2 (fun o => match o with Some x => k2 x | None => f2 end))
                   (lift m0 (fun o => match o with Some x => k0 x | None => f0 end)).
  Proof.
    intros [-> Hb] Hk Hf. apply lift_sim. intros [x|] Hm; [apply Hk, Hb, Hm|exact Hf].
  Qed.

  Lemma leaf_match_sim m2 m0 st k2 k0 :
    mrel (shift_cur a) (fun p => p) m2 m0 -> state_ok n st ->
    (forall p, p <= n -> simP (k2 (p + a)) (k0 p)) ->
    simP (leaf_match m2 (sst st) k2) (leaf_match m0 st k0).
  Proof. intros Hm Hst Hk. apply (opt_sim _ _ _ _ _ _ _ _ _ _ Hm Hk). by_sim. Qed.

  Lemma leaf_check_sim m2 m0 st :
    mrel (shift_cur a) (fun p => p) m2 m0 -> state_ok n st -> simC (leaf_check m2 (sst st)) (leaf_check m0 st).
  Proof. intros Hm Hst. apply (opt_sim _ _ _ _ _ _ _ _ _ _ Hm); intros; by_sim. Qed.

  Lemma notrack_sim {A} (sh : A -> A) okA (f2 f0 : state -> res A) st :
    sim a n sh okA (f2 (sst st)) (f0 st) ->
    sim a n sh okA (notrack f2 (sst st)) (notrack f0 st).
  Proof. intros H. unfold notrack. eapply sim_match; [exact H|intros; by_sim..]. Qed.

  Lemma snapshot_sst st : s_snapshot (stk (sst st)) = shift_stack a (s_snapshot (stk st)).
  Proof. apply s_snapshot_map. Qed.

  (* `stack.restore()` after a look-ahead or a failed attempt *)
  Lemma restore_sim {A} (sh : A -> A) okA st (k2 k0 : stack -> res A) :
    state_ok n st ->
    (forall s1, stack_all (span_ok n) s1 -> sim a n sh okA (k2 (shift_stack a s1)) (k0 s1)) ->
    sim a n sh okA (lift (s_restore (stk (sst st))) k2) (lift (s_restore (stk st)) k0).
  Proof.
    intros Hst Hk. change (stk (sst st)) with (map_stack (shift_span a) (stk st)). rewrite s_restore_map.
    apply lift_sim. intros s1 Hs1. apply Hk. exact (stack_all_restore _ _ _ Hst Hs1).
  Qed.

  Lemma index_sim {A} (sh : A -> A) okA st x y (k2 k0 : list span -> res A) :
    state_ok n st ->
    (forall sps, Forall (span_ok n) sps -> sim a n sh okA (k2 (map (shift_span a) sps)) (k0 sps)) ->
    sim a n sh okA (lift (s_index (shift_stack a (stk st)) x y) k2) (lift (s_index (stk st) x y) k0).
  Proof.
    intros Hst Hk. unfold shift_stack. rewrite s_index_map. apply lift_sim.
    intros sps Hsps. apply Hk, (stack_all_index _ _ _ _ _ Hst Hsps).
  Qed.

  Lemma stack_slice_sim {A} (sh : A -> A) okA st x y (k2 k0 : list span -> res A) f2 f0 :
    state_ok n st ->
    (forall sps, Forall (span_ok n) sps -> sim a n sh okA (k2 (map (shift_span a) sps)) (k0 sps)) ->
    sim a n sh okA f2 f0 ->
    sim a n sh okA (match stack_slice (shift_stack a (stk st)) x y with Some m => lift m k2 | None => f2 end)
                   (match stack_slice (stk st) x y with Some m => lift m k0 | None => f0 end).
  Proof.
    intros Hst Hk Hf. unfold stack_slice, shift_stack at 1. rewrite s_len_map.
    destruct (slice_spec x y (Z.of_nat (s_len (stk st)))) as [[ss se]|]; [|exact Hf].
    destruct (se <=? ss)%Z; [apply (Hk []), Forall_nil|apply index_sim; assumption].
  Qed.
End Rules.

Section Sim.
  Variable s : list byte.
  Variables a b : nat.
  Hypothesis HV : valid_range s a b.
  Variables E2 E0 : env.
  Hypothesis HE : env_agree s a b E2 E0.
  Hypothesis Hcut2 : e_su_cut E2 = true.
  Hypothesis Hcut0 : e_su_cut E0 = true.

  Local Notation n := (b - a).
  Local Notation I2 := (e_inp E2).
  Local Notation I0 := (e_inp E0).
  Local Notation sst := (shift_state a).
  Local Notation simP := (sim a n (sh_pair a (shift_node a)) (cur_ok n)).
  Local Notation simC := (sim a n (shift_cur a) (fun p => p <= n)).

  Lemma agree_inp2 : sub_of I2 s a b.            Proof. apply HE. Qed.
  Lemma agree_inp0 : sub_of I0 (sub_slice s a b) 0 n.
  Proof. rewrite (proj1 (proj2 HE)). apply (sub_of_fresh HV). Qed.
  Lemma agree_rules : e_rules E2 = e_rules E0. Proof. apply HE. Qed.
  Lemma agree_skip : e_skip E2 = e_skip E0.    Proof. apply HE. Qed.
  Lemma agree_pred : e_pred E2 = e_pred E0.    Proof. apply HE. Qed.
  Lemma agree_eoi : e_eoi E2 = e_eoi E0.       Proof. apply HE. Qed.
  Lemma agree_ron : e_ron_fixed E2 = e_ron_fixed E0. Proof. apply HE. Qed.
  Lemma agree_rm : e_rep_min_after E2 = e_rep_min_after E0. Proof. apply HE. Qed.

  Lemma E0_end : i_end I0 = n.
  Proof. apply agree_inp0. Qed.

  Lemma ms_rel t c0 : mrel n (shift_cur a) (fun p => p) (i_match_string I2 t (c0 + a)) (i_match_string I0 t c0).
  Proof.
    split; [exact (i_match_string_sub HV agree_inp2 agree_inp0 t c0)|].
    rewrite <- E0_end. intros p H. apply (match_string_range _ _ _ _ H).
  Qed.
  Lemma mi_rel t c0 : mrel n (shift_cur a) (fun p => p) (i_match_insens I2 t (c0 + a)) (i_match_insens I0 t c0).
  Proof.
    split; [exact (i_match_insens_sub HV agree_inp2 agree_inp0 t c0)|].
    rewrite <- E0_end. intros p H. apply (match_insens_range _ _ _ _ H).
  Qed.
  Lemma sk_rel k c0 : mrel n (shift_cur a) (fun p => p) (i_skip I2 k (c0 + a)) (i_skip I0 k c0).
  Proof.
    split; [exact (i_skip_sub HV agree_inp2 agree_inp0 k c0)|].
    rewrite <- E0_end. intros p H. apply (skip_range _ _ _ _ H).
  Qed.
  Lemma mc_rel f c0 : mrel n (shift_char_hit a) fst (i_match_char I2 f (c0 + a)) (i_match_char I0 f c0).
  Proof.
    split; [exact (i_match_char_sub HV agree_inp2 agree_inp0 f c0)|].
    rewrite <- E0_end. intros [p ch] H. apply (match_char_range _ _ _ _ _ H).
  Qed.
  Lemma soi_sub c0 : i_at_start I2 (c0 + a) = i_at_start I0 c0.
  Proof. exact (i_at_start_sub agree_inp2 agree_inp0 c0). Qed.
  Lemma eoi_sub c0 : i_at_end I2 (c0 + a) = i_at_end I0 c0.
  Proof. exact (i_at_end_sub HV agree_inp2 agree_inp0 c0). Qed.
  Lemma ss_sub sp0 : snd sp0 <= n -> span_str I2 (shift_span a sp0) = span_str I0 sp0.
  Proof. apply (span_str_sub HV agree_inp2 agree_inp0). Qed.
  Lemma su_sub ss c0 :
    c0 <= n -> i_skip_until I2 true ss (c0 + a) = shift_until a (i_skip_until I0 true ss c0).
  Proof. apply (i_skip_until_sub HV agree_inp2 agree_inp0). Qed.
  Lemma su_bound ss c : snd (i_skip_until I0 true ss c) <= n.
  Proof. rewrite <- E0_end. apply i_skip_until_bound. Qed.

  Lemma sst_with_stk s1 st : with_stk (shift_stack a s1) (sst st) = sst (with_stk s1 st).
  Proof. reflexivity. Qed.
  Lemma sst_ev e st : ev (shift_event a e) (sst st) = sst (ev e st).
  Proof. reflexivity. Qed.
  Lemma sst_with_tr st st1 : with_tr (tr (sst st)) (sst st1) = sst (with_tr (tr st) st1).
  Proof. reflexivity. Qed.

  Lemma state_ok_ev e st : state_ok n st -> state_ok n (ev e st).
  Proof. intros H. exact H. Qed.

  Lemma span_sim {A} (sh : A -> A) okA c0 p (f2 f0 : span -> res A) :
    p <= n ->
    (c0 <= p -> sim a n sh okA (f2 (c0 + a, p + a)) (f0 (c0, p))) ->
    sim a n sh okA (lift (i_span I2 (c0 + a) (p + a)) f2) (lift (i_span I0 c0 p) f0).
  Proof.
    intros Hp H. rewrite (i_span_sub HV agree_inp2 agree_inp0) by exact Hp. apply lift_sim.
    intros sp Hsp. apply i_span_ok in Hsp. destruct Hsp as [-> Hle]. apply H, Hle.
  Qed.

  Lemma str_sim {A} (sh : A -> A) okA sp (f2 f0 : list byte -> res A) :
    snd sp <= n -> (forall txt, sim a n sh okA (f2 txt) (f0 txt)) ->
    sim a n sh okA (lift (span_str I2 (shift_span a sp)) f2) (lift (span_str I0 sp) f0).
  Proof.
    intros Hsp H. rewrite ss_sub by exact Hsp.
    destruct (span_str _ sp); [apply H|now split].
  Qed.

  (* restore_on_none, both variants *)
  Lemma ron_sim {A} (sh : A -> A) okA (f2 f0 : state -> res A) st :
    state_ok n st ->
    (forall st1, state_ok n st1 -> sim a n sh okA (f2 (sst st1)) (f0 st1)) ->
    sim a n sh okA (ron E2 f2 (sst st)) (ron E0 f0 st).
  Proof.
    intros Hst Hf. unfold ron. rewrite agree_ron. destruct (e_ron_fixed E0).
    - eapply sim_match; [apply Hf, Hst|intros; by_sim|]. intros st' Hst'. apply sim_intro.
      + cbn [shift_res_with shift_state stk]. unfold shift_stack. rewrite s_pop_all_map.
        change (cache (map_stack (shift_span a) (stk st))) with (map (shift_span a) (cache (stk st))).
        rewrite s_push_all_map. reflexivity.
      + apply stack_all_push_all; [apply Hst|]. apply stack_all_pop_all, Hst'.
    - rewrite snapshot_sst. eapply sim_match; [apply (Hf (with_stk (s_snapshot (stk st)) st)), Hst| |].
      + intros x st' Hx Hst'. change (stk (sst st')) with (map_stack (shift_span a) (stk st')).
        rewrite s_clear_snapshot_map. apply lift_sim. intros s1 Hs1. apply sim_intro; [reflexivity|].
        split; [exact Hx|]. exact (stack_all_clear _ _ _ Hst' Hs1).
      + intros st' Hst'. apply restore_sim; [exact Hst'|]. intros s1 Hs1. by_sim.
  Qed.

  Lemma peek_spans_rel : forall sps c0,
    Forall (span_ok n) sps -> c0 <= n ->
    mrel n (shift_cur a) (fun p => p) (peek_spans E2 (map (shift_span a) sps) (c0 + a)) (peek_spans E0 sps c0).
  Proof.
    induction sps as [|sp sps IH]; intros c0 Hall Hc; cbn [peek_spans map].
    - split; [reflexivity|]. intros p H. injection H as <-. exact Hc.
    - inversion Hall as [|sp' sps' Hsp Hall']; subst.
      rewrite ss_sub by apply Hsp.
      destruct (span_str I0 sp) as [txt|]; cbn [mbind]; [|split; [reflexivity|discriminate]].
      destruct (ms_rel txt c0) as [-> Hb].
      destruct (i_match_string I0 txt c0) as [[p|]|]; cbn [mbind mmap option_map];
        [|split; [reflexivity|discriminate]..].
      apply IH; [exact Hall'|]. now apply Hb.
  Qed.

  Variable P2 P0 : bool -> texpr -> nat -> state -> res (nat * tnode).
  Variable C2 C0 : bool -> texpr -> nat -> state -> res nat.
  Hypothesis HP : forall inh e c0 st, c0 <= n -> state_ok n st ->
    simP (P2 inh e (c0 + a) (sst st)) (P0 inh e c0 st).
  Hypothesis HC : forall inh e c0 st, c0 <= n -> state_ok n st ->
    simC (C2 inh e (c0 + a) (sst st)) (C0 inh e c0 st).

  Lemma newline_p_sim : forall alts c0 st,
    c0 <= n -> state_ok n st ->
    simP (newline_p E2 alts (c0 + a) (sst st)) (newline_p E0 alts c0 st).
  Proof.
    induction alts as [|[bs k] alts IH]; intros c0 st Hc Hst; cbn [newline_p]; [by_sim|].
    apply opt_sim with (1 := ms_rel bs c0); [intros; by_sim|apply IH; assumption].
  Qed.

  Lemma newline_c_sim : forall alts c0 st,
    c0 <= n -> state_ok n st ->
    simC (newline_c E2 alts (c0 + a) (sst st)) (newline_c E0 alts c0 st).
  Proof.
    induction alts as [|[bs k] alts IH]; intros c0 st Hc Hst; cbn [newline_c]; [by_sim|].
    apply opt_sim with (1 := ms_rel bs c0); [intros; by_sim|apply IH; assumption].
  Qed.

  Lemma arep_p_sim : forall k inh e c0 st acc,
    c0 <= n -> state_ok n st ->
    simP (arep_p E2 P2 k inh e (c0 + a) (sst st) (map (shift_node a) acc))
         (arep_p E0 P0 k inh e c0 st acc).
  Proof.
    induction k as [|k IH]; intros inh e c0 st acc Hc Hst; cbn [arep_p]; [by_sim|].
    eapply sim_match_pair.
    - apply ron_sim; [exact Hst|]. intros st1 Hst1. apply notrack_sim, HP; assumption.
    - intros p t st' Hp Hst'. apply (IH inh e p st' (t :: acc)); assumption.
    - intros st' Hst'. rewrite <- map_rev. by_sim.
  Qed.

  Lemma arep_c_sim : forall k inh e c0 st,
    c0 <= n -> state_ok n st ->
    simC (arep_c E2 C2 k inh e (c0 + a) (sst st)) (arep_c E0 C0 k inh e c0 st).
  Proof.
    induction k as [|k IH]; intros inh e c0 st Hc Hst; cbn [arep_c]; [by_sim|].
    eapply sim_match.
    - apply ron_sim; [exact Hst|]. intros st1 Hst1. apply notrack_sim, HC; assumption.
    - intros p st' Hp Hst'. apply IH; assumption.
    - intros st' Hst'. by_sim.
  Qed.

  Variable lf : nat.

  Local Notation simL := (sim a n (sh_pair a (map (shift_node a))) (cur_ok n)).
  Local Notation simU := (sim a n (sh_pair a (shift_item a)) (cur_ok n)).

  Lemma skip_p_sim c0 st :
    c0 <= n -> state_ok n st ->
    simP (skip_p E2 P2 lf (c0 + a) (sst st)) (skip_p E0 P0 lf c0 st).
  Proof.
    intros Hc Hst. unfold skip_p. rewrite agree_skip. destruct (e_skip E0) as [|e]; [by_sim|].
    apply (arep_p_sim lf false e c0 st []); assumption.
  Qed.

  Lemma skip_c_sim c0 st :
    c0 <= n -> state_ok n st ->
    simC (skip_c E2 C2 lf (c0 + a) (sst st)) (skip_c E0 C0 lf c0 st).
  Proof.
    intros Hc Hst. unfold skip_c. rewrite agree_skip. destruct (e_skip E0) as [|e]; [by_sim|].
    apply arep_c_sim; assumption.
  Qed.

  Lemma pre_skip_p_sim bb doit c0 st :
    c0 <= n -> state_ok n st ->
    simL (pre_skip_p E2 P2 lf bb doit (c0 + a) (sst st)) (pre_skip_p E0 P0 lf bb doit c0 st).
  Proof.
    intros Hc Hst. unfold pre_skip_p. destruct bb; [destruct doit|]; [| |by_sim].
    - eapply sim_match_pair; [apply skip_p_sim; assumption|intros; by_sim..].
    - unfold skip_default. rewrite agree_skip. destruct (e_skip E0); by_sim.
  Qed.

  Lemma pre_skip_c_sim bb c0 st :
    c0 <= n -> state_ok n st ->
    simC (pre_skip_c E2 C2 lf bb (c0 + a) (sst st)) (pre_skip_c E0 C0 lf bb c0 st).
  Proof.
    intros Hc Hst. unfold pre_skip_c. destruct bb; [apply skip_c_sim; assumption|by_sim].
  Qed.

  Lemma seq_p_sim bb inh : forall es first c0 st acc,
    c0 <= n -> state_ok n st ->
    simP (seq_p E2 P2 lf bb inh es first (c0 + a) (sst st) (map (shift_item a) acc))
         (seq_p E0 P0 lf bb inh es first c0 st acc).
  Proof.
    induction es as [|e es IH]; intros first c0 st acc Hc Hst; cbn [seq_p].
    - rewrite <- map_rev. by_sim.
    - eapply sim_match_pair; [apply pre_skip_p_sim; assumption| |intros; by_sim].
      intros p1 sk1 st1 Hp1 Hst1.
      eapply sim_match_pair; [apply HP; assumption| |intros; by_sim].
      intros p2 t2 st2 Hp2 Hst2. apply (IH false p2 st2 ((sk1, t2) :: acc)); assumption.
  Qed.

  Lemma seq_c_sim bb inh : forall es first c0 st,
    c0 <= n -> state_ok n st ->
    simC (seq_c E2 C2 lf bb inh es first (c0 + a) (sst st)) (seq_c E0 C0 lf bb inh es first c0 st).
  Proof.
    induction es as [|e es IH]; intros first c0 st Hc Hst; cbn [seq_c]; [by_sim|].
    eapply sim_match; [apply pre_skip_c_sim; assumption| |intros; by_sim].
    intros p1 st1 Hp1 Hst1.
    eapply sim_match; [apply HC; assumption| |intros; by_sim].
    intros p2 st2 Hp2 Hst2. apply IH; assumption.
  Qed.

  Lemma choice_p_sim inh m : forall es i c0 st,
    c0 <= n -> state_ok n st ->
    simP (choice_p E2 P2 inh m es i (c0 + a) (sst st)) (choice_p E0 P0 inh m es i c0 st).
  Proof.
    induction es as [|e es IH]; intros i c0 st Hc Hst; cbn [choice_p]; [by_sim|].
    eapply sim_match_pair.
    - apply ron_sim; [exact Hst|]. intros st1 Hst1. apply HP; assumption.
    - intros. by_sim.
    - intros. apply IH; assumption.
  Qed.

  Lemma choice_c_sim inh : forall es c0 st,
    c0 <= n -> state_ok n st ->
    simC (choice_c E2 C2 inh es (c0 + a) (sst st)) (choice_c E0 C0 inh es c0 st).
  Proof.
    induction es as [|e es IH]; intros c0 st Hc Hst; cbn [choice_c]; [by_sim|].
    eapply sim_match.
    - apply ron_sim; [exact Hst|]. intros st1 Hst1. apply HC; assumption.
    - intros. by_sim.
    - intros. apply IH; assumption.
  Qed.

  Lemma unit_p_sim bb inh e i c0 st :
    c0 <= n -> state_ok n st ->
    simU (unit_p E2 P2 lf bb inh e i (c0 + a) (sst st)) (unit_p E0 P0 lf bb inh e i c0 st).
  Proof.
    intros Hc Hst. unfold unit_p.
    eapply sim_match_pair; [apply pre_skip_p_sim; assumption| |intros; by_sim].
    intros p1 sk1 st1 Hp1 Hst1.
    eapply sim_match_pair; [apply HP; assumption|intros; by_sim..].
  Qed.

  Lemma unit_c_sim bb inh e i c0 st :
    c0 <= n -> state_ok n st ->
    simC (unit_c E2 C2 lf bb inh e i (c0 + a) (sst st)) (unit_c E0 C0 lf bb inh e i c0 st).
  Proof.
    intros Hc Hst. unfold unit_c.
    eapply sim_match; [apply pre_skip_c_sim; assumption| |intros; by_sim].
    intros p1 st1 Hp1 Hst1. apply HC; assumption.
  Qed.

  Lemma rep_p_sim bb inh mn mx e : forall k i c0 st acc,
    c0 <= n -> state_ok n st ->
    simP (rep_p E2 P2 lf k bb inh mn mx e i (c0 + a) (sst st) (map (shift_item a) acc))
         (rep_p E0 P0 lf k bb inh mn mx e i c0 st acc).
  Proof.
    induction k as [|k IH]; intros i c0 st acc Hc Hst; cbn [rep_p]; rewrite agree_rm, <- map_rev.
    - destruct (below i mx); [by_sim|]. destruct (_ && _); by_sim.
    - destruct (below i mx); [|destruct (_ && _); by_sim]. eapply sim_match_pair.
      + apply ron_sim; [exact Hst|]. intros st1 Hst1. apply unit_p_sim; assumption.
      + intros p it st' Hp Hst'. apply (IH (S i) p st' (it :: acc)); assumption.
      + intros st' Hst'. destruct (i <? mn); by_sim.
  Qed.

  Lemma rep_c_sim bb inh mn mx e : forall k i c0 st,
    c0 <= n -> state_ok n st ->
    simC (rep_c E2 C2 lf k bb inh mn mx e i (c0 + a) (sst st))
         (rep_c E0 C0 lf k bb inh mn mx e i c0 st).
  Proof.
    induction k as [|k IH]; intros i c0 st Hc Hst; cbn [rep_c]; rewrite agree_rm.
    - destruct (below i mx); [by_sim|]. destruct (_ && _); by_sim.
    - destruct (below i mx); [|destruct (_ && _); by_sim]. eapply sim_match.
      + apply ron_sim; [exact Hst|]. intros st1 Hst1. apply unit_c_sim; assumption.
      + intros p st' Hp Hst'. apply IH; assumption.
      + intros st' Hst'. destruct (i <? mn); by_sim.
  Qed.

  Lemma arr_p_sim inh e : forall k c0 st acc,
    c0 <= n -> state_ok n st ->
    simP (arr_p P2 k inh e (c0 + a) (sst st) (map (shift_node a) acc)) (arr_p P0 k inh e c0 st acc).
  Proof.
    induction k as [|k IH]; intros c0 st acc Hc Hst; cbn [arr_p].
    - rewrite <- map_rev. by_sim.
    - eapply sim_match_pair; [apply HP; assumption| |intros; by_sim].
      intros p t st' Hp Hst'. apply (IH p st' (t :: acc)); assumption.
  Qed.

  Lemma arr_c_sim inh e : forall k c0 st,
    c0 <= n -> state_ok n st ->
    simC (arr_c C2 k inh e (c0 + a) (sst st)) (arr_c C0 k inh e c0 st).
  Proof.
    induction k as [|k IH]; intros c0 st Hc Hst; cbn [arr_c]; [by_sim|].
    eapply sim_match; [apply HC; assumption| |intros; by_sim].
    intros p st' Hp Hst'. apply IH; assumption.
  Qed.

  Lemma step_p_sim inh e c0 st :
    c0 <= n -> state_ok n st ->
    simP (step_p E2 P2 C2 lf inh e (c0 + a) (sst st)) (step_p E0 P0 C0 lf inh e c0 st).
  Proof.
    intros Hc Hst.
    destruct e as [t|t|lo hi| | | | |pp|ss|k|k es|es|e1|k mn mx e1|e1|e1|e1|e1| | | | | |x y|k e1|e1 e2| | |r arg];
      cbn [step_p].
    - (* TStr *) apply leaf_match_sim; [apply ms_rel|exact Hst|]. intros p Hp. by_sim.
    - (* TInsens *)
      apply leaf_match_sim; [apply mi_rel|exact Hst|]. intros p Hp. apply span_sim; [exact Hp|]. intros _.
      apply (str_sim _ _ (c0, p)); [exact Hp|]. intros txt. by_sim.
    - (* TRange *)
      apply opt_sim with (1 := mc_rel _ c0); [|by_sim]. intros [p c] Hp.
      cbn [shift_char_hit fst snd]. apply span_sim; [exact Hp|]. intros _.
      apply (str_sim _ _ (c0, p)); [exact Hp|]. intros txt. destruct (dec1 txt) as [[c' l]|]; by_sim.
    - (* TAny *) apply opt_sim with (1 := mc_rel _ c0); [intros [p c] Hp|]; by_sim.
    - (* TSoi *) rewrite soi_sub. destruct (i_at_start I0 c0); by_sim.
    - (* TEoi *) rewrite eoi_sub. destruct (i_at_end I0 c0); by_sim.
    - (* TNewline *) apply newline_p_sim; assumption.
    - (* TCharBy *)
      rewrite agree_pred. apply opt_sim with (1 := mc_rel _ c0); [intros [p c] Hp|]; by_sim.
    - (* TSkipUntil *)
      rewrite Hcut2, Hcut0, su_sub by exact Hc. pose proof (su_bound ss c0) as Hb.
      destruct (i_skip_until I0 true ss c0) as [f p']. cbn [shift_until fst snd].
      apply span_sim; [exact Hb|]. intros _. by_sim.
    - (* TSkipChars *)
      apply leaf_match_sim; [apply sk_rel|exact Hst|]. intros p Hp.
      apply span_sim; [exact Hp|]. intros _. by_sim.
    - (* TSeq *) apply (seq_p_sim (resolve k inh) inh es true c0 st []); assumption.
    - (* TChoice *) apply choice_p_sim; assumption.
    - (* TOpt *)
      eapply sim_match_pair.
      + apply ron_sim; [exact Hst|]. intros st1 Hst1. apply HP; assumption.
      + intros. by_sim.
      + intros. by_sim.
    - (* TRep *) apply (rep_p_sim (resolve k inh) inh mn mx e1 lf 0 c0 st []); assumption.
    - (* TAtomicRep *) apply (arep_p_sim lf inh e1 c0 st []); assumption.
    - (* TPos *)
      rewrite snapshot_sst. eapply sim_match_pair.
      { apply (HP _ _ c0 (with_stk (s_snapshot (stk st)) (ev (EPol true) st))); assumption. }
      + intros p t st' _ Hst'. apply restore_sim; [exact Hst'|]. intros s1 Hs1. by_sim.
      + intros st' Hst'. apply restore_sim; [exact Hst'|]. intros s1 Hs1. by_sim.
    - (* TNeg *)
      rewrite snapshot_sst. eapply sim_match.
      { apply (HC _ _ c0 (with_stk (s_snapshot (stk st)) (ev (EPol false) st))); assumption. }
      + intros p st' _ Hst'. apply restore_sim; [exact Hst'|]. intros s1 Hs1. by_sim.
      + intros st' Hst'. apply restore_sim; [exact Hst'|]. intros s1 Hs1. by_sim.
    - (* TPush *)
      eapply sim_match_pair; [apply HP; assumption| |intros; by_sim].
      intros p t st' Hp Hst'. apply span_sim; [exact Hp|]. intros Hle. apply sim_intro; [reflexivity|].
      split; [exact Hp|]. apply stack_all_push; [split; assumption|exact Hst'].
    - (* TPeek *)
      change (stk (sst st)) with (map_stack (shift_span a) (stk st)). rewrite s_peek_map.
      destruct (s_peek (stk st)) as [sp|] eqn:Hpk; cbn [option_map]; [|by_sim].
      apply str_sim; [apply (stack_all_peek _ _ _ Hst Hpk)|]. intros txt.
      apply leaf_match_sim; [apply ms_rel|exact Hst|]. intros p Hp.
      apply span_sim; [exact Hp|]. intros _. by_sim.
    - (* TPop *)
      change (stk (sst st)) with (map_stack (shift_span a) (stk st)). rewrite s_pop_map.
      pose proof (stack_all_pop _ _ Hst) as [Hst1 Hx].
      destruct (s_pop (stk st)) as [[sp|] s1]; cbn [fst snd option_map] in *; [|by_sim].
      apply str_sim; [apply (Hx sp eq_refl)|]. intros txt.
      apply (leaf_match_sim _ _ _ _ (with_stk s1 st)); [apply ms_rel|exact Hst1|]. intros p Hp. by_sim.
    - (* TDrop *)
      change (stk (sst st)) with (map_stack (shift_span a) (stk st)). rewrite s_pop_map.
      pose proof (stack_all_pop _ _ Hst) as [Hst1 _].
      destruct (s_pop (stk st)) as [[sp|] s1]; cbn [fst snd option_map] in *; by_sim.
    - (* TPeekAll *)
      change (stk (sst st)) with (map_stack (shift_span a) (stk st)). rewrite s_len_map. apply index_sim; [exact Hst|]. intros bf Hbf. rewrite <- map_rev.
      apply leaf_match_sim; [apply peek_spans_rel; [apply Forall_rev, Hbf|exact Hc]|exact Hst|].
      intros p Hp. apply span_sim; [exact Hp|]. intros _. by_sim.
    - (* TPopAll *)
      change (stk (sst st)) with (map_stack (shift_span a) (stk st)). rewrite s_len_map. apply index_sim; [exact Hst|]. intros bf Hbf. rewrite <- map_rev.
      apply leaf_match_sim; [apply peek_spans_rel; [apply Forall_rev, Hbf|exact Hc]|exact Hst|].
      intros p Hp. apply span_sim; [exact Hp|]. intros _. rewrite s_pop_all_map.
      apply sim_intro; [reflexivity|]. split; [exact Hp|]. apply stack_all_pop_all, Hst.
    - (* TPeekSlice *)
      apply stack_slice_sim; [exact Hst| |by_sim]. intros sps Hsps.
      apply leaf_match_sim; [apply peek_spans_rel; [exact Hsps|exact Hc]|exact Hst|].
      intros p Hp. apply span_sim; [exact Hp|]. intros _. by_sim.
    - (* TArr *) apply (arr_p_sim inh e1 k c0 st []); assumption.
    - (* TPair *)
      eapply sim_match_pair; [apply HP; assumption| |intros; by_sim]. intros p t st' Hp Hst'.
      eapply sim_match_pair; [apply HP; assumption|intros; by_sim..].
    - (* TEmpty *) by_sim.
    - (* TFail *) by_sim.
    - (* TRule *)
      rewrite agree_rules. cbv zeta. destruct (r_emis (e_rules E0 r)).
      + (* span only: through the check path *)
        eapply sim_match; [apply (HC _ _ c0 (ev (EEnter r c0) st)); assumption| |intros; by_sim].
        intros p st' Hp Hst'. apply span_sim; [exact Hp|]. intros _. by_sim.
      + (* expression only *)
        eapply sim_match_pair; [apply HP; assumption|intros; by_sim..].
      + (* both *)
        eapply sim_match_pair; [apply (HP _ _ c0 (ev (EEnter r c0) st)); assumption| |intros; by_sim].
        intros p t st' Hp Hst'. apply span_sim; [exact Hp|]. intros _. by_sim.
  Qed.

  Lemma step_c_sim inh e c0 st :
    c0 <= n -> state_ok n st ->
    simC (step_c E2 C2 lf inh e (c0 + a) (sst st)) (step_c E0 C0 lf inh e c0 st).
  Proof.
    intros Hc Hst.
    destruct e as [t|t|lo hi| | | | |pp|ss|k|k es|es|e1|k mn mx e1|e1|e1|e1|e1| | | | | |x y|k e1|e1 e2| | |r arg];
      cbn [step_c].
    - (* TStr *) apply leaf_check_sim; [apply ms_rel|exact Hst].
    - (* TInsens *) apply leaf_check_sim; [apply mi_rel|exact Hst].
    - (* TRange *) apply opt_sim with (1 := mc_rel _ c0); [intros [p c] Hp|]; by_sim.
    - (* TAny *) apply opt_sim with (1 := mc_rel _ c0); [intros [p c] Hp|]; by_sim.
    - (* TSoi *) rewrite soi_sub. destruct (i_at_start I0 c0); by_sim.
    - (* TEoi *) rewrite eoi_sub. destruct (i_at_end I0 c0); by_sim.
    - (* TNewline *) apply newline_c_sim; assumption.
    - (* TCharBy *)
      rewrite agree_pred. apply opt_sim with (1 := mc_rel _ c0); [intros [p c] Hp|]; by_sim.
    - (* TSkipUntil *)
      rewrite Hcut2, Hcut0, su_sub by exact Hc. pose proof (su_bound ss c0) as Hb.
      destruct (i_skip_until I0 true ss c0) as [f p']. by_sim.
    - (* TSkipChars *) apply leaf_check_sim; [apply sk_rel|exact Hst].
    - (* TSeq *) apply seq_c_sim; assumption.
    - (* TChoice *) apply choice_c_sim; assumption.
    - (* TOpt *)
      eapply sim_match.
      + apply ron_sim; [exact Hst|]. intros st1 Hst1. apply HC; assumption.
      + intros. by_sim.
      + intros. by_sim.
    - (* TRep *) apply rep_c_sim; assumption.
    - (* TAtomicRep *) apply arep_c_sim; assumption.
    - (* TPos *)
      rewrite snapshot_sst. eapply sim_match.
      { apply (HC _ _ c0 (with_stk (s_snapshot (stk st)) (ev (EPol true) st))); assumption. }
      + intros p st' _ Hst'. apply restore_sim; [exact Hst'|]. intros s1 Hs1. by_sim.
      + intros st' Hst'. apply restore_sim; [exact Hst'|]. intros s1 Hs1. by_sim.
    - (* TNeg *)
      rewrite snapshot_sst. eapply sim_match.
      { apply (HC _ _ c0 (with_stk (s_snapshot (stk st)) (ev (EPol false) st))); assumption. }
      + intros p st' _ Hst'. apply restore_sim; [exact Hst'|]. intros s1 Hs1. by_sim.
      + intros st' Hst'. apply restore_sim; [exact Hst'|]. intros s1 Hs1. by_sim.
    - (* TPush *)
      eapply sim_match; [apply HC; assumption| |intros; by_sim].
      intros p st' Hp Hst'. apply span_sim; [exact Hp|]. intros Hle. apply sim_intro; [reflexivity|].
      split; [exact Hp|]. apply stack_all_push; [split; assumption|exact Hst'].
    - (* TPeek *)
      change (stk (sst st)) with (map_stack (shift_span a) (stk st)). rewrite s_peek_map.
      destruct (s_peek (stk st)) as [sp|] eqn:Hpk; cbn [option_map]; [|by_sim].
      apply str_sim; [apply (stack_all_peek _ _ _ Hst Hpk)|]. intros txt.
      apply leaf_check_sim; [apply ms_rel|exact Hst].
    - (* TPop *)
      change (stk (sst st)) with (map_stack (shift_span a) (stk st)). rewrite s_pop_map.
      pose proof (stack_all_pop _ _ Hst) as [Hst1 Hx].
      destruct (s_pop (stk st)) as [[sp|] s1]; cbn [fst snd option_map] in *; [|by_sim].
      apply str_sim; [apply (Hx sp eq_refl)|]. intros txt.
      apply (leaf_check_sim _ _ _ _ (with_stk s1 st)); [apply ms_rel|exact Hst1].
    - (* TDrop *)
      change (stk (sst st)) with (map_stack (shift_span a) (stk st)). rewrite s_pop_map.
      pose proof (stack_all_pop _ _ Hst) as [Hst1 _].
      destruct (s_pop (stk st)) as [[sp|] s1]; cbn [fst snd option_map] in *; by_sim.
    - (* TPeekAll *)
      change (stk (sst st)) with (map_stack (shift_span a) (stk st)). rewrite s_len_map. apply index_sim; [exact Hst|]. intros bf Hbf. rewrite <- map_rev.
      eapply opt_sim; [apply peek_spans_rel; [apply Forall_rev, Hbf|exact Hc]| |by_sim].
      intros p Hp. apply span_sim; [exact Hp|]. intros _. by_sim.
    - (* TPopAll *)
      change (stk (sst st)) with (map_stack (shift_span a) (stk st)). rewrite s_len_map. apply index_sim; [exact Hst|]. intros bf Hbf. rewrite <- map_rev.
      eapply opt_sim; [apply peek_spans_rel; [apply Forall_rev, Hbf|exact Hc]| |by_sim].
      intros p Hp. apply span_sim; [exact Hp|]. intros _. rewrite s_pop_all_map.
      apply sim_intro; [reflexivity|]. split; [exact Hp|]. apply stack_all_pop_all, Hst.
    - (* TPeekSlice *)
      apply stack_slice_sim; [exact Hst| |by_sim]. intros sps Hsps.
      eapply opt_sim; [apply peek_spans_rel; [exact Hsps|exact Hc]| |by_sim].
      intros p Hp. apply span_sim; [exact Hp|]. intros _. by_sim.
    - (* TArr *) apply arr_c_sim; assumption.
    - (* TPair *)
      eapply sim_match; [apply HC; assumption| |intros; by_sim].
      intros p st' Hp Hst'. apply HC; assumption.
    - (* TEmpty *) by_sim.
    - (* TFail *) by_sim.
    - (* TRule *)
      rewrite agree_rules. cbv zeta.
      destruct (r_emis (e_rules E0 r)).
      + eapply sim_match; [apply (HC _ _ c0 (ev (EEnter r c0) st)); assumption|intros; by_sim..].
      + apply HC; assumption.
      + eapply sim_match; [apply (HC _ _ c0 (ev (EEnter r c0) st)); assumption|intros; by_sim..].
  Qed.
End Sim.

Theorem sim_lift s a b E2 E0 :
  valid_range s a b -> env_agree s a b E2 E0 -> e_su_cut E2 = true -> e_su_cut E0 = true ->
  forall fuel,
    (forall inh e c0 st, c0 <= b - a -> state_ok (b - a) st ->
       sim a (b - a) (sh_pair a (shift_node a)) (cur_ok (b - a))
           (tparse E2 fuel inh e (c0 + a) (shift_state a st)) (tparse E0 fuel inh e c0 st)) /\
    (forall inh e c0 st, c0 <= b - a -> state_ok (b - a) st ->
       sim a (b - a) (shift_cur a) (fun p => p <= b - a)
           (tcheck E2 fuel inh e (c0 + a) (shift_state a st)) (tcheck E0 fuel inh e c0 st)).
Proof.
  intros HV HE H2 H0. induction fuel as [|k [IHP IHC]].
  - split; intros; by_sim.
  - split; intros inh e c0 st Hc Hst; cbn [tparse tcheck].
    + eapply step_p_sim; eassumption.
    + eapply step_c_sim; eassumption.
Qed.

Section Entry.
  Variable s : list byte.
  Variables a b : nat.
  Hypothesis HV : valid_range s a b.
  Variables E2 E0 : env.
  Hypothesis HE : env_agree s a b E2 E0.
  Hypothesis Hcut2 : e_su_cut E2 = true.
  Hypothesis Hcut0 : e_su_cut E0 = true.

  Local Notation n := (b - a).

  Lemma partial_sim fuel r :
    sim a n (sh_pair a (shift_node a)) (cur_ok n) (try_parse_partial E2 fuel r) (try_parse_partial E0 fuel r) /\
    sim a n (shift_cur a) (fun p => p <= n) (try_check_partial E2 fuel r) (try_check_partial E0 fuel r).
  Proof.
    unfold try_parse_partial, try_check_partial.
    destruct (agree_inp2 _ _ _ _ _ HE) as (_ & -> & _), (agree_inp0 _ _ _ HV _ _ HE) as (_ & -> & _).
    destruct (sim_lift s a b E2 E0 HV HE Hcut2 Hcut0 fuel) as [HP HC].
    split; [apply (HP true (TRule r SkOn) 0 st0)|apply (HC true (TRule r SkOn) 0 st0)];
      (apply Nat.le_0_l || apply state_ok0).
  Qed.

  Lemma eoi_attempt_sim p st :
    state_ok n st ->
    sim a n (fun u => u) (fun _ => True) (eoi_attempt E2 (p + a) (shift_state a st)) (eoi_attempt E0 p st).
  Proof.
    intros Hst. unfold eoi_attempt. rewrite (agree_eoi _ _ _ _ _ HE), (eoi_sub _ _ _ HV _ _ HE).
    destruct (i_at_end (e_inp E0) p); by_sim.
  Qed.

  Lemma no_ignore_sub r : no_ignore E2 r = no_ignore E0 r.
  Proof. unfold no_ignore. rewrite (agree_eoi _ _ _ _ _ HE), (agree_rules _ _ _ _ _ HE). reflexivity. Qed.

  (* the full entry points: the rule, then the trailing skip unless the rule is atomic, then EOI *)
  Lemma full_parse_sim fuel r :
    sim a n (shift_node a) (fun _ => True) (try_parse E2 fuel r) (try_parse E0 fuel r).
  Proof.
    unfold try_parse, top_skip_p. rewrite no_ignore_sub.
    destruct (sim_lift s a b E2 E0 HV HE Hcut2 Hcut0 fuel) as [HP _].
    eapply sim_match_pair; [apply partial_sim| |intros; by_sim].
    intros p t st Hp Hst. destruct (no_ignore E0 r).
    - eapply sim_match; [apply eoi_attempt_sim, Hst|intros; by_sim..].
    - eapply sim_match_pair; [eapply skip_p_sim; eassumption| |intros; by_sim].
      intros p' t' st' Hp' Hst'.
      eapply sim_match; [apply eoi_attempt_sim, Hst'|intros; by_sim..].
  Qed.

  Lemma full_check_sim fuel r :
    sim a n (fun u => u) (fun _ => True) (try_check E2 fuel r) (try_check E0 fuel r).
  Proof.
    unfold try_check, top_skip_c. rewrite no_ignore_sub.
    destruct (sim_lift s a b E2 E0 HV HE Hcut2 Hcut0 fuel) as [_ HC].
    eapply sim_match; [apply partial_sim| |intros; by_sim].
    intros p st Hp Hst. destruct (no_ignore E0 r); [apply eoi_attempt_sim, Hst|].
    eapply sim_match; [eapply skip_c_sim; eassumption| |intros; by_sim].
    intros p' st' Hp' Hst'. apply eoi_attempt_sim, Hst'.
  Qed.
End Entry.

Theorem subinput_entry_points s a b E2 E0 fuel r :
  valid_range s a b -> env_agree s a b E2 E0 -> e_su_cut E2 = true -> e_su_cut E0 = true ->
  try_parse_partial E2 fuel r = shift_pres a (try_parse_partial E0 fuel r) /\
  try_check_partial E2 fuel r = shift_cres a (try_check_partial E0 fuel r) /\
  try_parse E2 fuel r = shift_tres a (try_parse E0 fuel r) /\
  try_check E2 fuel r = shift_ures a (try_check E0 fuel r).
Proof.
  intros HV HE H2 H0. repeat split.
  - apply (partial_sim s a b HV E2 E0 HE H2 H0).
  - apply (partial_sim s a b HV E2 E0 HE H2 H0).
  - apply (full_parse_sim s a b HV E2 E0 HE H2 H0).
  - apply (full_check_sim s a b HV E2 E0 HE H2 H0).
Qed.

Lemma ok_iff {A} (c : bool) (P : Prop) (x : A) st :
  reflect P c -> (exists y st', (if c then Ok x st else Fail st) = Ok y st') <-> P.
Proof.
  intros [H|H]; split.
  - intros _. exact H.
  - intros _. eexists _, _. reflexivity.
  - intros (y & st' & Hy). discriminate Hy.
  - intros HP. contradiction.
Qed.

Lemma soi_eoi s a b E2 k inh c st :
  sub_of (e_inp E2) s a b ->
  ((exists x st', tparse E2 (S k) inh TSoi c st = Ok x st') <-> c = a) /\
  ((exists x st', tparse E2 (S k) inh TEoi c st = Ok x st') <-> c = b).
Proof.
  intros (_ & Hs & He). cbn [tparse step_p]. unfold i_at_start, i_at_end. rewrite Hs, He.
  split; apply ok_iff, Nat.eqb_spec.
Qed.

(* nothing outside [a, b) influences the outcome: two parents with the same text between a and b *)
Theorem outside_irrelevant s1 s2 a b E1 E2 E0 fuel inh e c0 st :
  valid_range s1 a b -> valid_range s2 a b ->
  env_agree s1 a b E1 E0 -> env_agree s2 a b E2 E0 ->
  e_su_cut E1 = true -> e_su_cut E2 = true -> e_su_cut E0 = true ->
  c0 <= b - a -> state_ok (b - a) st ->
  tparse E1 fuel inh e (c0 + a) (shift_state a st) = tparse E2 fuel inh e (c0 + a) (shift_state a st) /\
  tcheck E1 fuel inh e (c0 + a) (shift_state a st) = tcheck E2 fuel inh e (c0 + a) (shift_state a st).
Proof.
  intros HV1 HV2 HE1 HE2 Hc1 Hc2 Hc0 Hc Hst.
  destruct (sim_lift s1 a b E1 E0 HV1 HE1 Hc1 Hc0 fuel) as [P1 C1].
  destruct (sim_lift s2 a b E2 E0 HV2 HE2 Hc2 Hc0 fuel) as [P2 C2].
  split.
  - destruct (P1 inh e c0 st Hc Hst) as [-> _]. symmetry. apply (P2 inh e c0 st Hc Hst).
  - destruct (C1 inh e c0 st Hc Hst) as [-> _]. symmetry. apply (C2 inh e c0 st Hc Hst).
Qed.

Theorem span_entry_points s a b E fuel r :
  valid_range s a b -> e_inp E = inp_of_str (sub_slice s a b) -> e_su_cut E = true ->
  let E2 := with_inp E (inp_of_span s a b) in
  try_parse_partial E2 fuel r = shift_pres a (try_parse_partial E fuel r) /\
  try_check_partial E2 fuel r = shift_cres a (try_check_partial E fuel r) /\
  try_parse E2 fuel r = shift_tres a (try_parse E fuel r) /\
  try_check E2 fuel r = shift_ures a (try_check E fuel r).
Proof.
  intros HV HI Hcut E2. apply (subinput_entry_points s a b); try assumption.
  apply env_agree_with_inp; [apply sub_of_span|exact HI].
Qed.

Theorem position_entry_points s a E fuel r :
  a <= length s -> is_boundary s a = true -> e_inp E = inp_of_str (skipn a s) -> e_su_cut E = true ->
  let E2 := with_inp E (inp_of_pos s a) in
  try_parse_partial E2 fuel r = shift_pres a (try_parse_partial E fuel r) /\
  try_check_partial E2 fuel r = shift_cres a (try_check_partial E fuel r) /\
  try_parse E2 fuel r = shift_tres a (try_parse E fuel r) /\
  try_check E2 fuel r = shift_ures a (try_check E fuel r).
Proof.
  intros Ha Hb HI Hcut E2. apply (subinput_entry_points s a (length s)); try assumption.
  - exact (conj Ha (conj (le_n _) (conj Hb (is_boundary_length s)))).
  - apply env_agree_with_inp; [apply sub_of_pos|]. rewrite sub_slice_to_end. exact HI.
Qed.

Theorem matchers_related s a b I2 :
  valid_range s a b -> sub_of I2 s a b ->
  let I0 := inp_of_str (sub_slice s a b) in
  length (sub_slice s a b) = b - a /\
  (forall c0, i_get I2 (c0 + a) = i_get I0 c0) /\
  (forall t c0, i_match_string I2 t (c0 + a) = mmap (option_map (shift_cur a)) (i_match_string I0 t c0)) /\
  (forall t c0, i_match_insens I2 t (c0 + a) = mmap (option_map (shift_cur a)) (i_match_insens I0 t c0)) /\
  (forall k c0, i_skip I2 k (c0 + a) = mmap (option_map (shift_cur a)) (i_skip I0 k c0)) /\
  (forall f c0, i_match_char I2 f (c0 + a) = mmap (option_map (shift_char_hit a)) (i_match_char I0 f c0)) /\
  (forall ss c0, c0 <= b - a ->
     i_skip_until I2 true ss (c0 + a) = shift_until a (i_skip_until I0 true ss c0)) /\
  (forall c0, i_at_start I2 (c0 + a) = i_at_start I0 c0) /\
  (forall c0, i_at_end I2 (c0 + a) = i_at_end I0 c0) /\
  (forall x0 y0, y0 <= b - a -> i_span I2 (x0 + a) (y0 + a) = mmap (shift_span a) (i_span I0 x0 y0)) /\
  (forall sp0, snd sp0 <= b - a -> span_str I2 (shift_span a sp0) = span_str I0 sp0).
Proof.
  intros HV HI I0. pose proof (sub_of_fresh HV) as HI0.
  exact (conj (sub_slice_length HV) (conj (i_get_sub HV HI HI0) (conj (i_match_string_sub HV HI HI0)
        (conj (i_match_insens_sub HV HI HI0) (conj (i_skip_sub HV HI HI0) (conj (i_match_char_sub HV HI HI0)
        (conj (i_skip_until_sub HV HI HI0) (conj (i_at_start_sub HI HI0) (conj (i_at_end_sub HV HI HI0)
        (conj (i_span_sub HV HI HI0) (span_str_sub HV HI HI0))))))))))).
Qed.

(* "x" "e-acute" " " "a" "b" "y": the Span 1..6 is "e-acute ab"; implicit whitespace, a stack push, a
   skip_until, a negative predicate that looks at the cut-off end, EOI at b = 6 < length = 7 *)
Definition ex_s : list byte := [120; 195; 169; 32; 97; 98; 121]%N.
Definition ex_body : texpr :=
  TSeq SkInh [TSoi; TAny; TPush (TStr [97%N]); TSkipUntil [[98%N]]; TStr [98%N]; TNeg TAny; TEoi].
Definition ex_env (I : inp) (cut : bool) : env :=
  mk_env I (fun _ => mk_rdef None EmBoth ex_body) (SkipRep (TStr [32%N])) (fun _ _ => false) 99%N true cut true.

Example subinput_nonvacuous :
  let E2 := ex_env (inp_of_span ex_s 1 6) true in
  let E0 := ex_env (inp_of_str (sub_slice ex_s 1 6)) true in
  valid_range ex_s 1 6 /\ env_agree ex_s 1 6 E2 E0 /\ e_su_cut E2 = true /\ e_su_cut E0 = true /\
  sub_slice ex_s 1 6 = [195; 169; 32; 97; 98]%N /\
  try_parse_partial E0 10 0%N =
    Ok (5, NRule 0%N (Some (NSeq [([NAtomicRep []], NSoi);
                                  ([NAtomicRep []], NChar CkAny 233%N);
                                  ([NAtomicRep [NStr]], NPush NStr);
                                  ([NAtomicRep []], NSpanned KSkip 4 4);
                                  ([NAtomicRep []], NStr);
                                  ([NAtomicRep []], NNeg);
                                  ([NAtomicRep []], NEoi)])) (Some (0, 5)))
       (mk_state (mk_stack [(3, 4)] [] []) [EExit 0%N 0 true; EPolEnd; EPol false; EEnter 0%N 0]) /\
  try_parse_partial E2 10 0%N =
    Ok (6, NRule 0%N (Some (NSeq [([NAtomicRep []], NSoi);
                                  ([NAtomicRep []], NChar CkAny 233%N);
                                  ([NAtomicRep [NStr]], NPush NStr);
                                  ([NAtomicRep []], NSpanned KSkip 5 5);
                                  ([NAtomicRep []], NStr);
                                  ([NAtomicRep []], NNeg);
                                  ([NAtomicRep []], NEoi)])) (Some (1, 6)))
       (mk_state (mk_stack [(4, 5)] [] []) [EExit 0%N 1 true; EPolEnd; EPol false; EEnter 0%N 1]).
Proof.
  cbv zeta. split; [|split; [|split; [|split; [|split; [|split]]]]].
  - unfold valid_range. repeat split; try reflexivity; cbn; repeat constructor.
  - unfold env_agree, sub_of. repeat split.
  - reflexivity.
  - reflexivity.
  - vm_compute. reflexivity.
  - vm_compute. reflexivity.
  - vm_compute. reflexivity.
Qed.

(* the defect that was repaired (F3): while skip_until compared against text running to the end of the
   parent string, a needle straddling b was found on the Span but not on the fresh text *)
Lemma subinput_refuted_before_fix :
  exists s a b E2 E0 e,
    valid_range s a b /\ env_agree s a b E2 E0 /\ e_su_cut E2 = false /\ e_su_cut E0 = false /\
    tparse E2 2 true e (0 + a) (shift_state a st0) <> shift_pres a (tparse E0 2 true e 0 st0) /\
    tcheck E2 2 true e (0 + a) (shift_state a st0) <> shift_cres a (tcheck E0 2 true e 0 st0).
Proof.
  exists [120; 120; 97; 98]%N, 0, 3.
  exists (ex_env (inp_of_span [120; 120; 97; 98]%N 0 3) false).
  exists (ex_env (inp_of_str (sub_slice [120; 120; 97; 98]%N 0 3)) false).
  exists (TSkipUntil [[97; 98]%N]).
  split; [|split; [|split; [|split; [|split]]]].
  - unfold valid_range. repeat split; try reflexivity; cbn; repeat constructor.
  - unfold env_agree, sub_of. repeat split.
  - reflexivity.
  - reflexivity.
  - vm_compute. intros H. discriminate H.
  - vm_compute. intros H. discriminate H.
Qed.

Fixpoint shift_tok (a : nat) (t : tok) : tok :=
  match t with Tok r s e cs => Tok r (s + a) (e + a) (map (shift_tok a) cs) end.

Lemma flat_map_map_Forall {A B C} (f2 : A -> list C) (f0 : A -> list B) (g : A -> A) (h : B -> C) l :
  Forall (fun x => f2 (g x) = map h (f0 x)) l -> flat_map f2 (map g l) = map h (flat_map f0 l).
Proof.
  induction 1 as [|x l Hx _ IH]; [reflexivity|]. cbn [map flat_map]. rewrite map_app, Hx, IH. reflexivity.
Qed.

Lemma tokens_shift E2 E0 a :
  e_rules E2 = e_rules E0 ->
  forall t, tokens E2 (shift_node a t) = map (shift_tok a) (tokens E0 t).
Proof.
  intros Hr. fix IH 1. intros t.
  (* the lists below a node: [IH] on each element, which the guard condition accepts for the
     node's own lists only, hence inside the case *)
  assert (Hitem : forall sk t1, Forall (fun x => tokens E2 (shift_node a x) = map (shift_tok a) (tokens E0 x)) sk ->
            tokens E2 (shift_node a t1) = map (shift_tok a) (tokens E0 t1) ->
            flat_map (tokens E2) (map (shift_node a) sk) ++ tokens E2 (shift_node a t1)
            = map (shift_tok a) (flat_map (tokens E0) sk ++ tokens E0 t1)).
  { intros sk t1 Hsk Ht. rewrite map_app, Ht, (flat_map_map_Forall _ _ _ _ _ Hsk). reflexivity. }
  destruct t as [ |s e|k c| | |k|k s e|items|m i t1|o|bd items|items|t1| |t1| |two|items|x y| |r content sp];
    try reflexivity; cbn [shift_node tokens].
  - (* NSeq *)
    apply (flat_map_map_Forall _ (fun it => flat_map (tokens E0) (fst it) ++ tokens E0 (snd it))).
    induction items as [|[sk t1] items IHi]; constructor; [|exact IHi].
    apply Hitem; [|apply IH]. induction sk as [|x sk IHs]; constructor; [apply IH|exact IHs].
  - (* NChoice *) apply IH.
  - (* NOpt *) destruct o as [t1|]; [apply IH|reflexivity].
  - (* NRep *)
    apply (flat_map_map_Forall _ (fun it => flat_map (tokens E0) (fst it) ++ tokens E0 (snd it))).
    induction items as [|[sk t1] items IHi]; constructor; [|exact IHi].
    apply Hitem; [|apply IH]. induction sk as [|x sk IHs]; constructor; [apply IH|exact IHs].
  - (* NAtomicRep *)
    apply flat_map_map_Forall. induction items as [|x items IHs]; constructor; [apply IH|exact IHs].
  - (* NPush *) apply IH.
  - (* NArr *)
    apply flat_map_map_Forall. induction items as [|x items IHs]; constructor; [apply IH|exact IHs].
  - (* NPair *) rewrite map_app, (IH x), (IH y). reflexivity.
  - (* NRule *)
    unfold has_children. rewrite Hr.
    assert (Hc : match match content with Some c => Some (shift_node a c) | None => None end with
                 | Some c => tokens E2 c | None => [] end
                 = map (shift_tok a) match content with Some c => tokens E0 c | None => [] end)
      by (destruct content as [c|]; [apply IH|reflexivity]).
    destruct (r_emis (e_rules E0 r)); [|exact Hc|]; (destruct sp as [[s e]|]; [|reflexivity]).
    all: cbn [option_map shift_span fst snd map shift_tok]; rewrite Hc.
    all: destruct (r_atom (e_rules E0 r)) as [[|]|]; reflexivity.
Qed.

Theorem subinput_tokens s a b E2 E0 fuel r t st :
  valid_range s a b -> env_agree s a b E2 E0 -> e_su_cut E2 = true -> e_su_cut E0 = true ->
  try_parse E0 fuel r = Ok t st ->
  exists t2 st2, try_parse E2 fuel r = Ok t2 st2 /\ tokens E2 t2 = map (shift_tok a) (tokens E0 t).
Proof.
  intros HV HE H2 H0 Hp.
  destruct (subinput_entry_points s a b E2 E0 fuel r HV HE H2 H0) as (_ & _ & Hf & _).
  rewrite Hp in Hf. cbn [shift_tres shift_res_with] in Hf.
  eexists _, _. split; [exact Hf|]. apply tokens_shift. eapply agree_rules. exact HE.
Qed.

