(* C08, byte level and stack level.
   Section Ops: the cursor operations of a sub-input (Span(s,a,b) / Position(s,a)) are the operations of
           the fresh string s[a..b] with every offset shifted by a.
   Sections StackMap, StackAll: the pest::Stack operations commute with mapping the stored spans and
           preserve any element-wise invariant. *)
From Coq Require Import List Arith Bool Lia.
From PT Require Import Model.Base Model.Stack Proofs.ListFacts Proofs.BaseFacts.
Import ListNotations.

Definition mmap {A B} (f : A -> B) (m : mres A) : mres B :=
  match m with MOk x => MOk (f x) | MPanic => MPanic end.

Definition sub_slice (s : list byte) (a b : nat) : list byte := firstn (b - a) (skipn a s).

(* a..b is a range of s that `Span::new` / `Position::new` accept *)
Definition valid_range (s : list byte) (a b : nat) : Prop :=
  a <= b /\ b <= length s /\ is_boundary s a = true /\ is_boundary s b = true.

(* I2 is the input "s from a to b": covers SubInput2 (FSpan) and SubInput1 (FPos, b = length s) *)
Definition sub_of (I2 : inp) (s : list byte) (a b : nat) : Prop :=
  parent I2 = s /\ i_start I2 = a /\ i_end I2 = b.

Definition shift_cur (a : nat) (p : nat) : nat := p + a.
Definition shift_span (a : nat) (sp : nat * nat) : nat * nat := (fst sp + a, snd sp + a).
Definition shift_char_hit (a : nat) (x : nat * char) : nat * char := (fst x + a, snd x).
Definition shift_until (a : nat) (x : bool * nat) : bool * nat := (fst x, snd x + a).

Lemma sub_of_span s a b : sub_of (inp_of_span s a b) s a b.
Proof. repeat split. Qed.

Lemma sub_of_pos s a : sub_of (inp_of_pos s a) s a (length s).
Proof. repeat split. Qed.

Lemma sub_of_str s : sub_of (inp_of_str s) s 0 (length s).
Proof. repeat split. Qed.

Lemma sub_slice_to_end s a : sub_slice s a (length s) = skipn a s.
Proof. unfold sub_slice. apply firstn_all2. rewrite skipn_length. lia. Qed.

Lemma sub_slice_whole s : sub_slice s 0 (length s) = s.
Proof. rewrite sub_slice_to_end. reflexivity. Qed.

Lemma eqb_add_r c d a : (c + a =? d + a) = (c =? d).
Proof. apply eq_iff_eq_true. rewrite !Nat.eqb_eq. apply Nat.add_cancel_r. Qed.

(* the string, the range and the two inputs are read off the hypotheses about them *)
Set Implicit Arguments.
Section Ops.
  Variable s : list byte.
  Variables a b : nat.
  Hypothesis HV : valid_range s a b.

  Local Notation s' := (sub_slice s a b).

  Lemma sub_slice_length : length s' = b - a.
  Proof. apply slice_length, HV. Qed.

  Lemma sub_of_fresh : sub_of (inp_of_str s') s' 0 (b - a).
  Proof. rewrite <- sub_slice_length. apply sub_of_str. Qed.

  Lemma b_split : b = (b - a) + a.
  Proof. symmetry. apply Nat.sub_add, HV. Qed.

  Lemma is_boundary_sub c0 : c0 <= b - a -> is_boundary s' c0 = is_boundary s (c0 + a).
  Proof.
    intros Hc. destruct HV as (Hab & Hbl & Hba & Hbb). rewrite Nat.add_comm. apply is_boundary_slice; assumption.
  Qed.

  Lemma slice_opt_sub x0 y0 :
    y0 <= b - a -> slice_opt s (x0 + a) (y0 + a) = slice_opt s' x0 y0.
  Proof.
    intros Hy. unfold slice_opt. rewrite sub_slice_length.
    assert (Hya : y0 + a <= length s) by (destruct HV as (? & ? & _); lia).
    rewrite (proj2 (Nat.leb_le _ _) Hya), (proj2 (Nat.leb_le _ _) Hy), !andb_true_r.
    destruct (Nat.leb_spec x0 y0) as [Hxy|Hxy].
    - rewrite (proj2 (Nat.leb_le _ _) (proj1 (Nat.add_le_mono_r _ _ a) Hxy)).
      rewrite !is_boundary_sub by (try apply (Nat.le_trans _ _ _ Hxy); exact Hy).
      destruct (_ && _); [|reflexivity].
      f_equal. unfold sub_slice. rewrite skipn_firstn_comm, skipn_skipn, firstn_firstn.
      replace (y0 + a - (x0 + a)) with (y0 - x0) by lia.
      rewrite Nat.min_l by lia. reflexivity.
    - rewrite (proj2 (Nat.leb_gt _ _) (proj1 (Nat.add_lt_mono_r _ _ a) Hxy)). reflexivity.
  Qed.

  Lemma slice_checked_sub x0 y0 :
    y0 <= b - a -> slice_checked s (x0 + a) (y0 + a) = slice_checked s' x0 y0.
  Proof. intros Hy. rewrite !slice_checked_opt, slice_opt_sub by exact Hy. reflexivity. Qed.

  (* I2 is the sub-input, I0 an input that is the fresh text: only parent, start() and end() matter *)
  Variables I2 I0 : inp.
  Hypothesis HI2 : sub_of I2 s a b.
  Hypothesis HI0 : sub_of I0 s' 0 (b - a).

  Lemma i_get_sub c0 : i_get I2 (c0 + a) = i_get I0 c0.
  Proof.
    destruct HI2 as (Hp & _ & He), HI0 as (Hp0 & _ & He0). unfold i_get. rewrite Hp, He, Hp0, He0.
    rewrite b_split at 1. apply slice_checked_sub, le_n.
  Qed.

  (* the four matchers read the rest of the input once and compute their answer from it *)
  Lemma via_get_sub {T} (g : T -> T) (F2 F0 : list byte -> option T) c0 :
    (forall rest, F2 rest = option_map g (F0 rest)) ->
    mbind (i_get I2 (c0 + a)) (fun rest => MOk (F2 rest))
    = mmap (option_map g) (mbind (i_get I0 c0) (fun rest => MOk (F0 rest))).
  Proof.
    intros H. rewrite i_get_sub. destruct (i_get I0 c0) as [rest|]; cbn [mbind mmap]; [rewrite H|]; reflexivity.
  Qed.

  Lemma i_match_string_sub t c0 :
    i_match_string I2 t (c0 + a) = mmap (option_map (shift_cur a)) (i_match_string I0 t c0).
  Proof.
    unfold i_match_string. apply via_get_sub. intros rest. destruct (is_prefix t rest); [|reflexivity].
    cbn [option_map]. f_equal. apply Nat.add_shuffle0.
  Qed.

  Lemma i_match_insens_sub t c0 :
    i_match_insens I2 t (c0 + a) = mmap (option_map (shift_cur a)) (i_match_insens I0 t c0).
  Proof.
    unfold i_match_insens. apply via_get_sub. intros rest.
    destruct (slice_opt rest 0 (length t)) as [pre|]; [|reflexivity].
    destruct (eq_ignore_case pre t); [|reflexivity]. cbn [option_map]. f_equal. apply Nat.add_shuffle0.
  Qed.

  Lemma i_skip_sub k c0 :
    i_skip I2 k (c0 + a) = mmap (option_map (shift_cur a)) (i_skip I0 k c0).
  Proof.
    unfold i_skip. apply via_get_sub. intros rest. destruct (skip_chars_len rest k 0) as [l|]; [|reflexivity].
    cbn [option_map]. f_equal. apply Nat.add_shuffle0.
  Qed.

  Lemma i_match_char_sub f c0 :
    i_match_char I2 f (c0 + a) = mmap (option_map (shift_char_hit a)) (i_match_char I0 f c0).
  Proof.
    unfold i_match_char. apply via_get_sub. intros rest. destruct (dec1 rest) as [[c l]|]; [|reflexivity].
    destruct (f c); [|reflexivity]. cbn [option_map]. unfold shift_char_hit. cbn [fst snd]. do 2 f_equal. apply Nat.add_shuffle0.
  Qed.

  Lemma i_at_start_sub c0 : i_at_start I2 (c0 + a) = i_at_start I0 c0.
  Proof.
    destruct HI2 as (_ & Hs & _), HI0 as (_ & Hs0 & _). unfold i_at_start. rewrite Hs, Hs0.
    apply (eqb_add_r c0 0 a).
  Qed.

  Lemma i_at_end_sub c0 : i_at_end I2 (c0 + a) = i_at_end I0 c0.
  Proof.
    destruct HI2 as (_ & _ & He), HI0 as (_ & _ & He0). unfold i_at_end. rewrite He, He0.
    rewrite b_split at 1. apply eqb_add_r.
  Qed.

  Lemma i_span_sub x0 y0 :
    y0 <= b - a -> i_span I2 (x0 + a) (y0 + a) = mmap (shift_span a) (i_span I0 x0 y0).
  Proof.
    intros Hy. destruct HI2 as (Hp & _ & _), HI0 as (Hp0 & _ & _). unfold i_span.
    rewrite Hp, Hp0, slice_opt_sub by exact Hy. destruct (slice_opt s' x0 y0); reflexivity.
  Qed.

  Lemma span_str_sub sp0 :
    snd sp0 <= b - a -> span_str I2 (shift_span a sp0) = span_str I0 sp0.
  Proof.
    destruct HI2 as (Hp & _ & _), HI0 as (Hp0 & _ & _). unfold span_str. rewrite Hp, Hp0.
    apply slice_checked_sub.
  Qed.

  Lemma su_hit_sub ss f0 : f0 <= b - a -> su_hit I2 true ss (f0 + a) = su_hit I0 true ss f0.
  Proof.
    intros Hf. destruct HI2 as (Hp & _ & He), HI0 as (Hp0 & _ & He0). unfold su_hit.
    rewrite Hp, He, Hp0, He0. rewrite b_split at 1. rewrite slice_opt_sub by apply le_n. reflexivity.
  Qed.

  Lemma su_scan_sub ss : forall k f0,
    f0 + k <= b - a ->
    su_scan I2 true ss (f0 + a) k = option_map (shift_cur a) (su_scan I0 true ss f0 k).
  Proof.
    induction k as [|k IH]; intros f0 Hk; cbn [su_scan]; [reflexivity|].
    rewrite su_hit_sub by lia.
    destruct (su_hit I0 true ss f0); [reflexivity|].
    apply (IH (S f0)). rewrite Nat.add_succ_comm. exact Hk.
  Qed.

  Lemma i_skip_until_sub ss c0 :
    c0 <= b - a ->
    i_skip_until I2 true ss (c0 + a) = shift_until a (i_skip_until I0 true ss c0).
  Proof.
    intros Hc. unfold i_skip_until. destruct HI2 as (_ & _ & He), HI0 as (_ & _ & He0). rewrite He, He0.
    replace (b - (c0 + a)) with (b - a - c0) by lia. rewrite su_scan_sub by lia.
    destruct (su_scan I0 true ss c0 (b - a - c0)) as [p|]; [reflexivity|]. exact (f_equal (pair false) b_split).
  Qed.
End Ops.
Unset Implicit Arguments.

Lemma i_skip_until_bound I cut ss c : snd (i_skip_until I cut ss c) <= i_end I.
Proof.
  unfold i_skip_until. pose proof (su_scan_spec I cut ss (i_end I - c) c) as Hs.
  destruct (su_scan I cut ss c (i_end I - c)) as [p|]; cbn [snd]; [destruct Hs as [Hs _]|]; lia.
Qed.

Definition map_stack (f : span -> span) (s : stack) : stack :=
  mk_stack (map f (cache s)) (map f (popped s)) (lengths s).

Definition stack_all (Q : span -> Prop) (s : stack) : Prop :=
  Forall Q (cache s) /\ Forall Q (popped s).

Section StackMap.
  Variable f : span -> span.

  Lemma s_len_map s : s_len (map_stack f s) = s_len s.
  Proof. unfold s_len, map_stack. cbn [cache]. apply map_length. Qed.

  Lemma s_peek_map s : s_peek (map_stack f s) = option_map f (s_peek s).
  Proof. unfold s_peek, map_stack. cbn [cache]. destruct (cache s); reflexivity. Qed.

  Lemma s_push_map x s : s_push (f x) (map_stack f s) = map_stack f (s_push x s).
  Proof. reflexivity. Qed.

  Lemma s_pop_map s :
    s_pop (map_stack f s) = (option_map f (fst (s_pop s)), map_stack f (snd (s_pop s))).
  Proof.
    destruct s as [c p ls]. unfold s_pop, map_stack. cbn [cache popped lengths].
    destruct c as [|x c']; cbn [map]; [reflexivity|].
    destruct ls as [|[l r] ls]; [reflexivity|].
    cbn [length]. rewrite map_length.
    destruct (S (length c') =? r); reflexivity.
  Qed.

  Lemma s_snapshot_map s : s_snapshot (map_stack f s) = map_stack f (s_snapshot s).
  Proof. unfold s_snapshot. rewrite s_len_map. reflexivity. Qed.

  Lemma s_clear_snapshot_map s :
    s_clear_snapshot (map_stack f s) = mmap (map_stack f) (s_clear_snapshot s).
  Proof.
    destruct s as [c p ls]. unfold s_clear_snapshot, map_stack. cbn [cache popped lengths].
    destruct ls as [|[l r] ls]; [reflexivity|].
    rewrite map_length.
    destruct ((r <=? l) && (l - r <=? length p)); cbn [mmap]; [|reflexivity].
    cbn [cache popped lengths]. rewrite skipn_map. reflexivity.
  Qed.

  Lemma keep_bottom_map r (c : list span) : keep_bottom r (map f c) = map f (keep_bottom r c).
  Proof. unfold keep_bottom. rewrite map_length, skipn_map. reflexivity. Qed.

  Lemma s_restore_map s : s_restore (map_stack f s) = mmap (map_stack f) (s_restore s).
  Proof.
    destruct s as [c p ls]. unfold s_restore, map_stack. cbn [cache popped lengths].
    destruct ls as [|[l r] ls]; [reflexivity|].
    rewrite !map_length.
    assert (Hc : (if r <? length c then keep_bottom r (map f c) else map f c)
                 = map f (if r <? length c then keep_bottom r c else c)).
    { destruct (r <? length c); [apply keep_bottom_map|reflexivity]. }
    rewrite Hc.
    destruct (r <? l); [|reflexivity].
    destruct (l - r <=? length p); cbn [mmap]; [|reflexivity].
    cbn [cache popped lengths].
    rewrite firstn_map, skipn_map, <- map_rev, <- map_app. reflexivity.
  Qed.

  Lemma s_index_map s x y : s_index (map_stack f s) x y = mmap (map f) (s_index s x y).
  Proof.
    unfold s_index. rewrite s_len_map.
    destruct ((x <=? y) && (y <=? s_len s)); cbn [mmap]; [|reflexivity].
    unfold map_stack. cbn [cache]. rewrite <- map_rev, skipn_map, firstn_map. reflexivity.
  Qed.

  Lemma s_pop_all_fuel_map : forall n s,
    s_pop_all_fuel n (map_stack f s) = map_stack f (s_pop_all_fuel n s).
  Proof.
    induction n as [|n IH]; intros s; cbn [s_pop_all_fuel]; [reflexivity|].
    rewrite s_pop_map. destruct (s_pop s) as [[x|] s1]; cbn [fst snd option_map]; [apply IH|reflexivity].
  Qed.

  Lemma s_pop_all_map s : s_pop_all (map_stack f s) = map_stack f (s_pop_all s).
  Proof. unfold s_pop_all. rewrite s_len_map. apply s_pop_all_fuel_map. Qed.

  Lemma fold_push_map : forall l s,
    fold_left (fun acc x => s_push x acc) (map f l) (map_stack f s)
    = map_stack f (fold_left (fun acc x => s_push x acc) l s).
  Proof.
    induction l as [|x l IH]; intros s; cbn [fold_left map]; [reflexivity|].
    rewrite s_push_map. apply IH.
  Qed.

  Lemma s_push_all_map saved s :
    s_push_all (map f saved) (map_stack f s) = map_stack f (s_push_all saved s).
  Proof. unfold s_push_all. rewrite <- map_rev. apply fold_push_map. Qed.
End StackMap.

Section StackAll.
  Variable Q : span -> Prop.

  Lemma stack_all_new : stack_all Q stack_new.
  Proof. split; constructor. Qed.

  Lemma stack_all_push x s : Q x -> stack_all Q s -> stack_all Q (s_push x s).
  Proof. intros Hx [Hc Hp]. split; cbn [s_push cache popped]; [constructor|]; assumption. Qed.

  Lemma stack_all_peek s x : stack_all Q s -> s_peek s = Some x -> Q x.
  Proof.
    intros [Hc _]. unfold s_peek. destruct Hc as [|y c Hy _]; [discriminate|]. intros [= <-]. exact Hy.
  Qed.

  Lemma stack_all_pop s :
    stack_all Q s ->
    stack_all Q (snd (s_pop s)) /\ (forall x, fst (s_pop s) = Some x -> Q x).
  Proof.
    intros Hs. pose proof Hs as [Hc Hp]. unfold s_pop.
    destruct Hc as [|y c Hy Hc]; [split; [exact Hs|discriminate]|].
    assert (Hx : forall x, Some y = Some x -> Q x) by (intros x [= <-]; exact Hy).
    destruct (lengths s) as [|[l r] ls]; [|destruct (_ =? r)].
    - exact (conj (conj Hc Hp) Hx).
    - exact (conj (conj Hc (Forall_cons y Hy Hp)) Hx).
    - exact (conj (conj Hc Hp) Hx).
  Qed.

  Lemma stack_all_snapshot s : stack_all Q s -> stack_all Q (s_snapshot s).
  Proof. intros H. exact H. Qed.

  Lemma stack_all_clear s s1 : stack_all Q s -> s_clear_snapshot s = MOk s1 -> stack_all Q s1.
  Proof.
    intros [Hc Hp]. unfold s_clear_snapshot.
    destruct (lengths s) as [|[l r] ls]; [intros [= <-]; split; assumption|].
    destruct (_ && _); [|discriminate]. intros [= <-]. split; [exact Hc|apply Forall_skipn, Hp].
  Qed.

  Lemma stack_all_restore s s1 : stack_all Q s -> s_restore s = MOk s1 -> stack_all Q s1.
  Proof.
    intros [Hc Hp]. unfold s_restore.
    destruct (lengths s) as [|[l r] ls]; [intros [= <-]; split; [constructor|exact Hp]|].
    assert (Hc1 : Forall Q (if r <? length (cache s) then keep_bottom r (cache s) else cache s)).
    { destruct (r <? length (cache s)); [apply Forall_skipn|]; exact Hc. }
    destruct (r <? l); [destruct (_ <=? _); [|discriminate]|]; intros [= <-]; split; cbn [cache popped].
    - apply Forall_app. split; [apply Forall_rev, Forall_firstn, Hp|exact Hc1].
    - apply Forall_skipn, Hp.
    - exact Hc1.
    - exact Hp.
  Qed.

  Lemma stack_all_index s x y l : stack_all Q s -> s_index s x y = MOk l -> Forall Q l.
  Proof.
    intros [Hc _]. unfold s_index. destruct (_ && _); [|discriminate].
    intros [= <-]. apply Forall_firstn, Forall_skipn, Forall_rev, Hc.
  Qed.

  Lemma stack_all_pop_all_fuel : forall n s, stack_all Q s -> stack_all Q (s_pop_all_fuel n s).
  Proof.
    induction n as [|n IH]; intros s Hs; cbn [s_pop_all_fuel]; [assumption|].
    pose proof (stack_all_pop s Hs) as [H1 _].
    destruct (s_pop s) as [[x|] s1]; cbn [snd] in H1; [apply IH|]; assumption.
  Qed.

  Lemma stack_all_pop_all s : stack_all Q s -> stack_all Q (s_pop_all s).
  Proof. apply stack_all_pop_all_fuel. Qed.

  Lemma stack_all_fold_push : forall l s,
    Forall Q l -> stack_all Q s -> stack_all Q (fold_left (fun acc x => s_push x acc) l s).
  Proof.
    induction l as [|x l IH]; intros s Hl Hs; cbn [fold_left]; [assumption|].
    inversion Hl; subst. apply IH; [assumption|]. apply stack_all_push; assumption.
  Qed.

  Lemma stack_all_push_all saved s : Forall Q saved -> stack_all Q s -> stack_all Q (s_push_all saved s).
  Proof. intros Hl Hs. apply stack_all_fold_push; [apply Forall_rev|]; assumption. Qed.
End StackAll.
