(* C11, termination half: a grammar accepted by the certificate checker [wf_cert] (Model/Wf.v) never
   runs out of fuel, given [fuel_bound] units of it: every parse of every good input returns.

   (1) [tparse_progress]: a successful run of an expression that the syntactic analysis calls
   not nullable moves the cursor strictly (induction on fuel; everything else is monotone by C09).
   (2) [tparse_terminates_ctx]: induction on fuel with the measure [fits],
          depth e + level_fuel D K (i_end - pos) k <= fuel
   where k bounds the ranks of what can be called before input is consumed: sub-expressions are
   shallower, a head call has a smaller rank, anything after consumption has less input left, and a
   repetition of a non-nullable body iterates at most (i_end - pos) + 1 times.

   Both inductions follow a run through the combinators of Sem.v, each of which continues a run by
   the same [match] on its result: [moves_match] and [nf_match] say what the whole run inherits from
   its first part and from the continuation taken. *)
From Coq Require Import List NArith Arith Bool Lia.
From PT Require Import Model.Base Model.Stack Model.Texpr Model.Sem Model.Wf.
From PT Require Import Proofs.BaseFacts Proofs.StackInv Proofs.CheckParse Proofs.BoundaryOps Proofs.Boundary.
Import ListNotations.

Lemma nf_match {A B} (r : res A) (k : A -> state -> res B) f :
  r <> Fuel -> (forall a st, r = Ok a st -> k a st <> Fuel) -> (forall st, r = Fail st -> f st <> Fuel) ->
  match r with Ok a st => k a st | Fail st => f st | Panic => Panic | Fuel => Fuel end <> Fuel.
Proof. destruct r; intros Hr Hk Hf; [exact (Hk _ _ eq_refl)|exact (Hf _ eq_refl)|discriminate|destruct (Hr eq_refl)]. Qed.

Lemma ron_fuel {A} E (f : state -> res A) st :
  e_ron_fixed E = true -> f st <> Fuel -> ron E f st <> Fuel.
Proof. intros Hf Hn. unfold ron. rewrite Hf. destruct (f st); congruence. Qed.

Lemma notrack_fuel {A} (f : state -> res A) st : f st <> Fuel -> notrack f st <> Fuel.
Proof. intros Hn. unfold notrack. destruct (f st); congruence. Qed.

Lemma lift_fuel {X B} (m : mres X) (f : X -> res B) : (forall x, f x <> Fuel) -> lift m f <> Fuel.
Proof. intros H. destruct m; cbn [lift]; [apply H|discriminate]. Qed.

Lemma leaf_match_fuel m st k : (forall p, k p <> Fuel) -> leaf_match m st k <> Fuel.
Proof. intros H. apply lift_fuel. intros [p|]; [apply H|discriminate]. Qed.

(* a match, `start.span(end)`, then a node *)
Lemma spanned_fuel m st m' (k : nat -> span -> res (nat * tnode)) :
  (forall p sp, k p sp <> Fuel) -> leaf_match m st (fun p => lift (m' p) (k p)) <> Fuel.
Proof. intros H. apply leaf_match_fuel. intros p. apply lift_fuel, H. Qed.

Lemma erase_fuel {A} (r : res (nat * A)) : r <> Fuel -> erase r <> Fuel.
Proof. destruct r as [[p a] st|st| |]; cbn [erase]; congruence. Qed.

Lemma newline_fuel E : forall alts pos st, newline_p E alts pos st <> Fuel.
Proof.
  induction alts as [|[bs k] alts IH]; intros pos st; cbn [newline_p]; [discriminate|].
  apply lift_fuel. intros [p|]; [discriminate|apply IH].
Qed.

Lemma ron_ok_inv {A} E (f : state -> res A) st a st' :
  e_ron_fixed E = true -> ron E f st = Ok a st' -> f st = Ok a st'.
Proof. intros Hf. unfold ron. rewrite Hf. destruct (f st); intros H; try discriminate; exact H. Qed.

Lemma notrack_ok_inv {A} (f : state -> res A) st a st' :
  notrack f st = Ok a st' -> exists st1, f st = Ok a st1.
Proof. unfold notrack. destruct (f st) as [a1 st1|st1| |]; intros [= <- _]. exists st1. reflexivity. Qed.

Lemma post_ok_inv {A I} {G : A -> Prop} {gs c r p a st'} :
  post I G gs c r -> r = Ok (p, a) st' -> c <= p /\ G a /\ pre I p st' gs.
Proof. intros H ->. cbn [post] in H. unfold pre. tauto. Qed.

Lemma post_fail_inv {A I} {G : A -> Prop} {gs c} {r : res (nat * A)} {st'} :
  good_cur I c -> post I G gs c r -> r = Fail st' -> pre I c st' gs.
Proof. intros Hc H ->. exact (conj Hc H). Qed.

Lemma post_not_panic {A} I (G : A -> Prop) gs c (r : res (nat * A)) : post I G gs c r -> r <> Panic.
Proof. intros H ->. exact H. Qed.

Definition adv (nul : bool) (pos p : nat) : Prop := if nul then pos <= p else pos < p.

Lemma adv_le {nul pos p} : adv nul pos p -> pos <= p.
Proof. destruct nul; [exact (fun H => H)|apply Nat.lt_le_incl]. Qed.

Lemma adv_trans {n1 n2 a b c} : adv n1 a b -> adv n2 b c -> adv (n1 && n2) a c.
Proof. destruct n1, n2; cbn [adv andb]; lia. Qed.

Definition moves {A} (nul : bool) (pos : nat) (r : res (nat * A)) : Prop :=
  forall p a st, r = Ok (p, a) st -> adv nul pos p.

Lemma moves_ok {A} nul pos p (a : A) st : adv nul pos p -> moves nul pos (Ok (p, a) st).
Proof. intros H p' a' st' [= <- _ _]. exact H. Qed.

Lemma moves_fail {A} nul pos st : moves nul pos (@Fail (nat * A) st).
Proof. intros p a st' [=]. Qed.

Lemma moves_match {A B} nul pos (r : res A) (k : A -> state -> res (nat * B)) f :
  (forall a st, r = Ok a st -> moves nul pos (k a st)) -> (forall st, r = Fail st -> moves nul pos (f st)) ->
  moves nul pos (match r with Ok a st => k a st | Fail st => f st | Panic => Panic | Fuel => Fuel end).
Proof. destruct r; intros Hk Hf; auto; intros p a st' [=]. Qed.

(* the usual case: a failure of the first part is the failure of the whole *)
Lemma moves_bind {A B} nul pos (r : res A) (k : A -> state -> res (nat * B)) :
  (forall a st, r = Ok a st -> moves nul pos (k a st)) ->
  moves nul pos (match r with Ok a st => k a st | Fail st => Fail st | Panic => Panic | Fuel => Fuel end).
Proof. intros Hk. apply moves_match; [exact Hk|intros; apply moves_fail]. Qed.

Lemma moves_lift {X A} nul pos (m : mres X) (f : X -> res (nat * A)) :
  (forall x, m = MOk x -> moves nul pos (f x)) -> moves nul pos (lift m f).
Proof. intros H. destruct m; cbn [lift]; [apply H; reflexivity|intros p a st [=]]. Qed.

Lemma leaf_moves nul pos m st k :
  (forall p, m = MOk (Some p) -> moves nul pos (k p)) -> moves nul pos (leaf_match m st k).
Proof. intros H. apply moves_lift. intros [p|] Hm; [apply H; exact Hm|apply moves_fail]. Qed.

Lemma moves_seq {A} n1 n2 pos p1 (r : res (nat * A)) : adv n1 pos p1 -> moves n2 p1 r -> moves (n1 && n2) pos r.
Proof. intros H1 H2 p a st Hr. exact (adv_trans H1 (H2 p a st Hr)). Qed.

Lemma moves_post {A I} {G : A -> Prop} {gs pos r} : post I G gs pos r -> moves true pos r.
Proof. intros H p a st Hr. apply (post_ok_inv H Hr). Qed.

Lemma len_adv {s : list byte} {pos p q} : pos + length s <= p <= q -> adv (is_nil s) pos p.
Proof. intros [H _]. destruct s; cbn [adv is_nil length] in *; lia. Qed.

Lemma match_char_adv {I f pos p ch} : i_match_char I f pos = MOk (Some (p, ch)) -> pos < p.
Proof. intros [H _]%match_char_range. rewrite Nat.add_1_r in H. exact H. Qed.

(* the three one-character leaves *)
Lemma char_moves I f pos st (k : nat * char -> res (nat * tnode)) :
  (forall pc, moves true (fst pc) (k pc)) ->
  moves false pos (lift (i_match_char I f pos) (fun o => match o with Some pc => k pc | None => Fail st end)).
Proof.
  intros Hk. apply moves_lift. intros [[p ch]|] Hm; [|apply moves_fail].
  exact (moves_seq false true pos p _ (match_char_adv Hm) (Hk (p, ch))).
Qed.

Lemma skip_adv {I n pos p} : i_skip I n pos = MOk (Some p) -> adv (n =? 0) pos p.
Proof. intros [H _]%skip_range. destruct n; cbn [adv Nat.eqb]; lia. Qed.

Lemma newline_adv E pos st : forall alts, Forall (fun a => is_nil (fst a) = false) alts ->
  moves false pos (newline_p E alts pos st).
Proof.
  induction alts as [|[bs k] alts IH]; intros Hne; cbn [newline_p]; [apply moves_fail|].
  apply Forall_cons_iff in Hne. destruct Hne as [Hbs Hne].
  apply moves_lift. intros [p|] Hm; [|exact (IH Hne)].
  apply moves_ok. apply match_string_range, len_adv in Hm. cbn [fst] in Hbs. rewrite Hbs in Hm. exact Hm.
Qed.

Lemma ranks_below_Forall k l : ranks_below k l = true <-> Forall (fun x => x < k) l.
Proof.
  unfold ranks_below. rewrite forallb_forall, Forall_forall.
  split; intros H x Hx; apply Nat.ltb_lt, H, Hx.
Qed.

Lemma list_max_In x l : In x l -> x <= list_max l.
Proof. intros Hin. pose proof (proj1 (list_max_le l _) (le_n _)) as H. rewrite Forall_forall in H. exact (H x Hin). Qed.

Lemma depth_list es : Forall (fun e => depth e <= list_max (map depth es)) es.
Proof. apply (proj1 (Forall_map depth (fun d => d <= _) es)), list_max_le, le_n. Qed.

Section Wf.
  Variable E : env.
  Variable rules : list N.
  Variable c : cert.
  Hypothesis HE : env_ok E.
  Hypothesis Hwf : wf_cert rules (e_rules E) (e_skip E) c = true.
  Local Notation I := (e_inp E).
  Local Notation D := (body_depth rules (e_rules E) (e_skip E)).
  Local Notation K := (rank_bound rules c).
  Local Notation B := (level_fuel D K).

  Definition good (e : texpr) : Prop := lits_ok e /\ expr_ok c rules e = true.

  (* the ranks in [l] are below [k]; below the global bound [K] is every rank in use, so nothing is asked *)
  Definition ranks_lt (k : nat) (l : list nat) : Prop := k = K \/ Forall (fun x => x < k) l.

  Definition heads_lt (inh : bool) (e : texpr) (k : nat) : Prop := ranks_lt k (head_ranks c inh e).

  Lemma ranks_lt_app {k l1 l2} : ranks_lt k (l1 ++ l2) -> ranks_lt k l1 /\ ranks_lt k l2.
  Proof. intros [->|H]; [split; left; reflexivity|]. apply Forall_app in H. split; right; apply H. Qed.

  Lemma ranks_lt_head {k x l} : x < K -> ranks_lt k (x :: l) -> x < k.
  Proof. intros Hx [->|H]; [exact Hx|exact (Forall_inv H)]. Qed.

  Lemma Hfix : e_ron_fixed E = true.
  Proof. apply HE. Qed.

  Lemma mem_rule_iff r : mem_rule rules r = true <-> In r rules.
  Proof.
    unfold mem_rule. rewrite existsb_exists. split.
    - intros (x & Hx & Heq). apply N.eqb_eq in Heq. subst. exact Hx.
    - intros Hin. exists r. split; [exact Hin|apply N.eqb_refl].
  Qed.

  Lemma rule_checked r : In r rules ->
    good (r_body (e_rules E r)) /\
    (nullable c r = false -> may_be_empty c (r_body (e_rules E r)) = false) /\
    forall inh, heads_lt inh (r_body (e_rules E r)) (rank c r inh).
  Proof.
    intros Hin. pose proof Hwf as H. apply andb_prop in H. destruct H as [H _].
    rewrite forallb_forall in H. specialize (H r Hin). unfold rule_ok in H.
    repeat (apply andb_prop in H; destruct H as [H ?]).
    split; [split; [apply HE|exact H]|]. split.
    - intros Hn. rewrite Hn in *. destruct (may_be_empty c _); [discriminate|reflexivity].
    - intros [|]; right; apply ranks_below_Forall; assumption.
  Qed.

  Lemma skip_checked se : e_skip E = SkipRep se ->
    good se /\ may_be_empty c se = false /\ heads_lt false se (skip_rank c).
  Proof.
    intros Hs. pose proof Hwf as H. apply andb_prop in H. destruct H as [_ H].
    rewrite Hs in H. cbn [skip_ok] in H.
    repeat (apply andb_prop in H; destruct H as [H ?]).
    destruct HE as (_ & _ & _ & _ & Hl). rewrite Hs in Hl.
    split; [split; assumption|]. split; [apply negb_true_iff; assumption|right; apply ranks_below_Forall; assumption].
  Qed.

  Lemma good_list es : Forall valid_utf8 (flat_map str_lits es) -> forallb (expr_ok c rules) es = true ->
    Forall good es.
  Proof.
    intros Hl He. apply lits_ok_list in Hl. rewrite forallb_forall in He.
    rewrite Forall_forall in *. intros x Hx. split; [apply Hl|apply He]; exact Hx.
  Qed.

  (* the body of either repetition *)
  Lemma good_body e1 e : expr_ok c rules e = negb (may_be_empty c e1) && expr_ok c rules e1 ->
    str_lits e = str_lits e1 -> good e -> good e1 /\ may_be_empty c e1 = false.
  Proof.
    intros He Hs [Hl H]. unfold lits_ok in Hl. rewrite Hs in Hl. rewrite He in H.
    apply andb_prop in H. destruct H as [H1 H2]. split; [split; assumption|apply negb_true_iff; exact H1].
  Qed.

  Lemma good_pair {a b} : good (TPair a b) -> good a /\ good b.
  Proof.
    intros [Hl He]. cbn [expr_ok] in He. apply andb_prop in He. destruct He as [H1 H2].
    apply Forall_app in Hl. destruct Hl as [Hl1 Hl2]. split; split; assumption.
  Qed.

  Lemma good_rule {r arg} : good (TRule r arg) -> In r rules.
  Proof. intros [_ He]. apply mem_rule_iff. exact He. Qed.

  Lemma tcheck_erase n inh e pos st gs : lits_ok e -> pre I pos st gs ->
    tcheck E n inh e pos st = erase (tparse E n inh e pos st).
  Proof.
    intros Hl Hpre. apply check_is_parse. eapply post_not_panic. apply (tparse_boundaries E HE n inh e pos st gs Hl Hpre).
  Qed.

  Lemma pre_le_end {pos st gs} : pre I pos st gs -> pos <= i_end I.
  Proof. intros ((_ & _ & H) & _). exact H. Qed.

  Lemma pre_enter {r pos st gs} : pre I pos st gs -> pre I pos (ev (EEnter r pos) st) gs.
  Proof. intros (Hc & Hst & Hi). split; [exact Hc|]. split; [apply good_state_ev; assumption|exact Hi]. Qed.

  (* the state in which the operand of a predicate runs *)
  Lemma pre_snapshot {b pos st gs} : pre I pos st gs ->
    pre I pos (with_stk (s_snapshot (stk st)) (ev (EPol b) st)) (cache (stk st) :: gs).
  Proof.
    intros (Hc & Hst & Hi). split; [exact Hc|]. split; [|apply sinv_snapshot; exact Hi].
    split; [apply Hst|]. constructor; [exact Logic.I|apply Hst].
  Qed.

  Lemma pre_skip_ran {n b doit pos st gs p sk st'} : pre I pos st gs ->
    pre_skip_p E (tparse E n) n b doit pos st = Ok (p, sk) st' -> pos <= p /\ pre I p st' gs.
  Proof.
    intros Hpre Hr. refine (let H := post_ok_inv _ Hr in conj (proj1 H) (proj2 (proj2 H))).
    exact (pre_skip_post E HE _ (tparse_boundaries E HE n) n b doit pos st gs Hpre).
  Qed.

  Lemma alt_failed {n inh e pos st gs st1} : good e -> pre I pos st gs ->
    ron E (tparse E n inh e pos) st = Fail st1 -> pre I pos st1 gs.
  Proof.
    intros Hg Hpre. apply (post_fail_inv (G := good_node I)); [apply Hpre|].
    apply (ron_post E HE); [apply Hpre|]. exact (tparse_boundaries E HE n inh e pos st gs (proj1 Hg) Hpre).
  Qed.

  Lemma iter_post n b inh e i pos st gs : good e -> pre I pos st gs ->
    post I (good_item I) gs pos (ron E (unit_p E (tparse E n) n b inh e i pos) st).
  Proof.
    intros Hg Hpre. apply (ron_post E HE); [apply Hpre|].
    apply (unit_post E HE _ (tparse_boundaries E HE n)); [exact (proj1 Hg)|exact Hpre].
  Qed.

  Section ProgStep.
    Variable n : nat.
    Hypothesis IHn : forall inh e pos st gs p t st',
      good e -> pre I pos st gs -> may_be_empty c e = false ->
      tparse E n inh e pos st = Ok (p, t) st' -> pos < p.
    Local Notation P := (tparse E n).
    Local Notation C := (tcheck E n).
    Arguments IHn {inh e pos st gs p t st'}.

    Lemma IHn_c {inh e pos st gs p st'} :
      good e -> pre I pos st gs -> may_be_empty c e = false ->
      C inh e pos st = Ok p st' -> pos < p.
    Proof.
      intros Hg Hpre Hnul Hrun. rewrite (tcheck_erase n inh e pos st gs (proj1 Hg) Hpre) in Hrun.
      destruct (P inh e pos st) as [[p1 t1] st1|st1| |] eqn:Hp; cbn [erase] in Hrun; inversion Hrun; subst.
      exact (IHn Hg Hpre Hnul Hp).
    Qed.

    (* what a sub-run that returned a value leaves to the rest of the run *)
    Lemma ran {inh e pos st gs p t st'} : good e -> pre I pos st gs ->
      P inh e pos st = Ok (p, t) st' -> adv (may_be_empty c e) pos p /\ pre I p st' gs.
    Proof.
      intros Hg Hpre Hp.
      destruct (post_ok_inv (tparse_boundaries E HE n inh e pos st gs (proj1 Hg) Hpre) Hp) as (Hle & _ & Hpre').
      split; [|exact Hpre']. destruct (may_be_empty c e) eqn:Hnul; [exact Hle|exact (IHn Hg Hpre Hnul Hp)].
    Qed.

    Lemma seq_prog b inh : forall es first pos st acc gs, Forall good es -> pre I pos st gs ->
      moves (forallb (may_be_empty c) es) pos (seq_p E P n b inh es first pos st acc).
    Proof.
      induction es as [|e es IH]; intros first pos st acc gs Hg Hpre; cbn [seq_p forallb].
      - apply moves_ok, le_n.
      - apply Forall_cons_iff in Hg. destruct Hg as [Hge Hges].
        apply moves_bind. intros [p1 sk] st1 Hsk. destruct (pre_skip_ran Hpre Hsk) as [Hle1 Hpre1].
        apply moves_bind. intros [p2 t2] st2 Hp. destruct (ran Hge Hpre1 Hp) as [Ha Hpre2].
        exact (moves_seq _ _ _ p2 _ (adv_trans (n1 := true) Hle1 Ha) (IH _ _ _ _ _ Hges Hpre2)).
    Qed.

    Lemma choice_prog inh m : forall es i pos st gs,
      Forall good es -> pre I pos st gs -> existsb (may_be_empty c) es = false ->
      moves false pos (choice_p E P inh m es i pos st).
    Proof.
      induction es as [|e es IH]; intros i pos st gs Hg Hpre Hnul; cbn [choice_p]; [apply moves_fail|].
      apply Forall_cons_iff in Hg. destruct Hg as [Hge Hges].
      apply orb_false_elim in Hnul. destruct Hnul as [Hn1 Hn2]. apply moves_match.
      - intros [p1 t1] st1 Hr. apply ron_ok_inv in Hr; [|exact Hfix]. apply moves_ok. exact (IHn Hge Hpre Hn1 Hr).
      - intros st1 Hr. exact (IH _ _ _ _ Hges (alt_failed Hge Hpre Hr) Hn2).
    Qed.

    Lemma unit_prog b inh e i pos st gs : good e -> pre I pos st gs ->
      moves (may_be_empty c e) pos (unit_p E P n b inh e i pos st).
    Proof.
      intros Hg Hpre. apply moves_bind. intros [p1 sk] st1 Hsk. destruct (pre_skip_ran Hpre Hsk) as [Hle1 Hpre1].
      apply moves_bind. intros [p2 t2] st2 Hp.
      apply moves_ok. exact (adv_trans (n1 := true) Hle1 (proj1 (ran Hg Hpre1 Hp))).
    Qed.

    Lemma iter_ran {b inh e i pos st gs p it st'} : good e -> may_be_empty c e = false -> pre I pos st gs ->
      ron E (unit_p E P n b inh e i pos) st = Ok (p, it) st' -> pos < p /\ good_item I it /\ pre I p st' gs.
    Proof.
      intros Hg Hne Hpre Hr. split; [|exact (proj2 (post_ok_inv (iter_post n b inh e i pos st gs Hg Hpre) Hr))].
      apply ron_ok_inv in Hr; [|exact Hfix]. apply (unit_prog _ _ _ _ _ _ gs Hg Hpre) in Hr.
      rewrite Hne in Hr. exact Hr.
    Qed.

    (* the first iteration is needed and moves strictly; by C09 the others do not move back *)
    Lemma rep_prog b inh mn mx e lf pos st gs :
      good e -> may_be_empty c e = false -> pre I pos st gs -> mn <> 0 -> below 0 mx = true ->
      moves false pos (rep_p E P n lf b inh mn mx e 0 pos st []).
    Proof.
      intros Hg Hne Hpre Hmn Hmx. destruct lf as [|lf]; cbn [rep_p]; rewrite Hmx; [intros p a s [=]|].
      apply moves_match.
      - intros [p1 it] st1 Hr. destruct (iter_ran Hg Hne Hpre Hr) as (Hlt & Hit & Hpre1).
        apply (moves_seq false true pos p1 _ Hlt), (@moves_post _ I (good_node I) gs).
        apply (rep_post E HE P (tparse_boundaries E HE n) n); [exact (proj1 Hg)|exact Hpre1|repeat constructor; apply Hit].
      - intros st1 _. destruct mn; [congruence|apply moves_fail].
    Qed.

    Lemma arr_prog inh e gs : good e -> may_be_empty c e = false ->
      forall m pos st acc, pre I pos st gs -> moves (m =? 0) pos (arr_p P m inh e pos st acc).
    Proof.
      intros Hg Hne. induction m as [|m IH]; intros pos st acc Hpre; cbn [arr_p]; [apply moves_ok, le_n|].
      apply moves_bind. intros [p1 t1] st1 Hp. destruct (ran Hg Hpre Hp) as [Ha Hpre1]. rewrite Hne in Ha.
      intros p a s Hr. exact (adv_trans (n2 := true) Ha (adv_le (IH _ _ _ Hpre1 p a s Hr))).
    Qed.

    Lemma step_progress inh e pos st gs :
      good e -> pre I pos st gs -> may_be_empty c e = false ->
      moves false pos (step_p E P C n inh e pos st).
    Proof.
      intros Hg Hpre Hnul.
      destruct e; cbn [may_be_empty] in Hnul; try discriminate; cbn [step_p].
      - (* TStr *)
        apply leaf_moves. intros p1 Hm. apply moves_ok. apply match_string_range, len_adv in Hm. rewrite Hnul in Hm. exact Hm.
      - (* TInsens *)
        apply leaf_moves. intros p1 Hm. do 2 (apply moves_lift; intros ? _). apply moves_ok.
        apply match_insens_range, len_adv in Hm. rewrite Hnul in Hm. exact Hm.
      - (* TRange *)
        apply char_moves. intros [p1 c1]. do 2 (apply moves_lift; intros ? _).
        destruct (dec1 _) as [[c2 l2]|]; [apply moves_ok, le_n|intros p a s [=]].
      - (* TAny *) apply char_moves. intros [p1 c1]. apply moves_ok, le_n.
      - (* TNewline *) apply newline_adv. repeat constructor.
      - (* TCharBy *) apply char_moves. intros [p1 c1]. apply moves_ok, le_n.
      - (* TSkipChars *)
        apply leaf_moves. intros p1 Hm. apply moves_lift; intros ? _. apply moves_ok.
        apply skip_adv in Hm. rewrite Hnul in Hm. exact Hm.
      - (* TSeq *) rewrite <- Hnul. exact (seq_prog _ _ _ _ _ _ _ gs (good_list _ (proj1 Hg) (proj2 Hg)) Hpre).
      - (* TChoice *) exact (choice_prog _ _ _ _ _ _ _ (good_list _ (proj1 Hg) (proj2 Hg)) Hpre Hnul).
      - (* TRep *)
        apply (good_body e) in Hg as [Hge Hne]; [|reflexivity..].
        apply orb_false_elim in Hnul. destruct Hnul as [Hnul _].
        apply orb_false_elim in Hnul. destruct Hnul as [Hmn Hmx]. apply Nat.eqb_neq in Hmn.
        apply (rep_prog _ _ _ _ _ _ _ _ gs Hge Hne Hpre Hmn). destruct mx as [[|m]|]; [discriminate|reflexivity..].
      - (* TPush *)
        apply moves_bind. intros [p1 t1] st1 Hp.
        apply moves_lift; intros ? _. apply moves_ok. exact (IHn (e := e) Hg Hpre Hnul Hp).
      - (* TArr *)
        apply orb_false_elim in Hnul. destruct Hnul as [Hn0 Hne]. rewrite <- Hn0.
        exact (arr_prog inh e gs Hg Hne _ _ _ _ Hpre).
      - (* TPair *)
        destruct (good_pair Hg) as [Hg1 Hg2]. rewrite <- Hnul.
        apply moves_bind. intros [p1 t1] st1 Hp1. destruct (ran Hg1 Hpre Hp1) as [Ha1 Hpre1].
        apply moves_bind. intros [p2 t2] st2 Hp2.
        apply moves_ok. exact (adv_trans Ha1 (proj1 (ran Hg2 Hpre1 Hp2))).
      - (* TRule *)
        destruct (rule_checked r (good_rule Hg)) as (Hgb & Hnb & _). specialize (Hnb Hnul).
        cbv zeta. destruct (r_emis (e_rules E r)).
        + apply moves_match; [|intros; apply moves_fail]. intros p1 st1 Hp.
          apply moves_lift; intros ? _. apply moves_ok. exact (IHn_c Hgb (pre_enter Hpre) Hnb Hp).
        + apply moves_bind. intros [p1 t1] st1 Hp. apply moves_ok. exact (IHn Hgb Hpre Hnb Hp).
        + apply moves_match; [|intros; apply moves_fail]. intros [p1 t1] st1 Hp.
          apply moves_lift; intros ? _. apply moves_ok. exact (IHn Hgb (pre_enter Hpre) Hnb Hp).
    Qed.
  End ProgStep.

  Theorem tparse_progress : forall n inh e pos st gs p t st',
    good e -> pre I pos st gs -> may_be_empty c e = false ->
    tparse E n inh e pos st = Ok (p, t) st' -> pos < p.
  Proof.
    induction n as [|n IH]; intros inh e pos st gs p t st' Hg Hpre Hnul Hrun; [discriminate|].
    exact (step_progress n IH inh e pos st gs Hg Hpre Hnul p t st' Hrun).
  Qed.

  Lemma rule_depth r : In r rules -> depth (r_body (e_rules E r)) <= D.
  Proof.
    intros Hin. unfold body_depth.
    pose proof (list_max_In _ _ (in_map (fun r0 => depth (r_body (e_rules E r0))) rules r Hin)). lia.
  Qed.

  Lemma skip_depth se : e_skip E = SkipRep se -> depth se <= D.
  Proof. intros Hs. unfold body_depth. rewrite Hs. cbn [skip_depth]. lia. Qed.

  Lemma rank_lt r inh : In r rules -> rank c r inh < K.
  Proof.
    intros Hin. unfold rank_bound.
    pose proof (list_max_In _ _ (in_map (fun r0 => Nat.max (rank c r0 true) (rank c r0 false)) rules r Hin)) as H.
    cbv beta in H. destruct inh; lia.
  Qed.

  Lemma skip_rank_lt : skip_rank c < K.
  Proof. unfold rank_bound. lia. Qed.

  Lemma seq_heads_cons h nul skr first e es :
    seq_heads h nul skr first (e :: es) =
    (if first then [] else skr) ++ h e ++ (if nul e then seq_heads h nul skr false es else []).
  Proof. reflexivity. Qed.

  (* the measure: with [n] units of fuel an expression of depth [d] may be run at [pos] when the
     ranks of what it can call before consuming input are below [k] *)
  Definition fits (n d pos k : nat) : Prop := k <= K /\ d + B (i_end I - pos) k <= n.

  Lemma mul_step a b d : a < b -> d + a * d <= b * d.
  Proof. exact (Nat.mul_le_mono_r (S a) b d). Qed.

  Lemma lf_k m k k' : k < k' -> B m k + D <= B m k'.
  Proof.
    intros H. unfold level_fuel.
    pose proof (mul_step (m * S K + k) (m * S K + k') D ltac:(lia)). lia.
  Qed.

  Lemma lf_m m m' k k' : m' < m -> k <= K -> B m' k + D <= B m k'.
  Proof.
    intros H1 H2. unfold level_fuel.
    pose proof (Nat.mul_le_mono_r (S m') m (S K) H1) as H3. cbn [Nat.mul] in H3.
    pose proof (mul_step (m' * S K + k) (m * S K + k') D ltac:(lia)). lia.
  Qed.

  Lemma lf_mono m m' k : m' <= m -> B m' k <= B m k.
  Proof.
    intros H1. unfold level_fuel.
    pose proof (Nat.mul_le_mono_r m' m (S K) H1) as H3.
    pose proof (Nat.mul_le_mono_r (m' * S K + k) (m * S K + k) D ltac:(lia)). lia.
  Qed.

  Lemma lf_ge m k : m + 2 <= B m k.
  Proof.
    unfold level_fuel.
    pose proof (Nat.mul_le_mono_l 1 (S K) m ltac:(lia)) as H1.
    pose proof (Nat.mul_le_mono_l 1 D (m * S K + k) ltac:(unfold body_depth; lia)) as H2. lia.
  Qed.

  Lemma fits_S {n d pos k} : fits (S n) (S d) pos k -> fits n d pos k.
  Proof. intros [H1 H2]. split; [exact H1|exact (le_S_n _ _ H2)]. Qed.

  Lemma fits_le {n d d' pos k} : fits n d pos k -> d' <= d -> fits n d' pos k.
  Proof. intros [H1 H2] Hd. split; [exact H1|]. lia. Qed.

  Lemma fits_at {n d pos pos' k} : fits n d pos k -> pos <= pos' -> fits n d pos' k.
  Proof.
    intros [H1 H2] Hle. split; [exact H1|].
    pose proof (lf_mono (i_end I - pos) (i_end I - pos') k ltac:(lia)). lia.
  Qed.

  Lemma fits_later {n d pos pos' k} : fits n d pos k -> pos < pos' -> pos' <= i_end I -> fits n d pos' K.
  Proof.
    intros [H1 H2] Hlt He. split; [apply le_n|].
    pose proof (lf_m (i_end I - pos) (i_end I - pos') K k ltac:(lia) (le_n _)). lia.
  Qed.

  Lemma fits_rank {n d d' pos k k'} : fits n d pos k -> k' < k -> d' <= D -> fits n d' pos k'.
  Proof.
    intros [H1 H2] Hk Hd. split; [lia|]. pose proof (lf_k (i_end I - pos) k' k Hk). lia.
  Qed.

  Lemma fits_loop {n d pos k} : fits n d pos k -> i_end I - pos < n.
  Proof. intros [_ H]. pose proof (lf_ge (i_end I - pos) k). lia. Qed.

  Lemma loop_next {lf pos p} : i_end I - pos < S lf -> pos < p -> p <= i_end I -> i_end I - p < lf.
  Proof. lia. Qed.

  Section TermStep.
    Variable n : nat.
    Hypothesis IHn : forall inh e pos st gs k,
      good e -> pre I pos st gs -> heads_lt inh e k -> fits n (depth e) pos k ->
      tparse E n inh e pos st <> Fuel.
    Local Notation P := (tparse E n).
    Local Notation C := (tcheck E n).

    (* what fits at [pos] fits anywhere later, whatever it calls first there *)
    Lemma call_after {inh e d pos k pos' st' gs} : fits n d pos k -> good e -> depth e <= d ->
      pos < pos' -> pre I pos' st' gs -> P inh e pos' st' <> Fuel.
    Proof.
      intros Hf Hg Hd Hlt Hpre. apply (IHn inh e pos' st' gs K Hg Hpre (or_introl eq_refl)).
      exact (fits_le (fits_later Hf Hlt (pre_le_end Hpre)) Hd).
    Qed.

    Lemma call {inh e d pos k pos' st' gs} : fits n d pos k -> good e -> depth e <= d -> heads_lt inh e k ->
      pos <= pos' -> pre I pos' st' gs -> P inh e pos' st' <> Fuel.
    Proof.
      intros Hf Hg Hd Hh Hle Hpre. apply Nat.lt_eq_cases in Hle. destruct Hle as [Hlt| <-].
      - exact (call_after Hf Hg Hd Hlt Hpre).
      - exact (IHn inh e pos st' gs k Hg Hpre Hh (fits_le Hf Hd)).
    Qed.

    Lemma call_c {inh e d pos k st' gs} : fits n d pos k -> good e -> depth e <= d -> heads_lt inh e k ->
      pre I pos st' gs -> C inh e pos st' <> Fuel.
    Proof.
      intros Hf Hg Hd Hh Hpre. rewrite (tcheck_erase n inh e pos st' gs (proj1 Hg) Hpre).
      apply erase_fuel. exact (call Hf Hg Hd Hh (le_n _) Hpre).
    Qed.

    Lemma arep_term inh e gs : good e -> may_be_empty c e = false ->
      forall lf pos st acc, pre I pos st gs ->
      (forall pos' st', pos <= pos' -> pre I pos' st' gs -> P inh e pos' st' <> Fuel) ->
      i_end I - pos < lf -> arep_p E P lf inh e pos st acc <> Fuel.
    Proof.
      intros Hg Hne. induction lf as [|lf IH]; intros pos st acc Hpre Hcall Hlf; [inversion Hlf|]. cbn [arep_p].
      pose proof Hpre as (_ & Hst & _). apply nf_match; [| |discriminate].
      - apply ron_fuel; [exact Hfix|]. apply notrack_fuel. exact (Hcall pos st (le_n _) Hpre).
      - intros [p1 t1] st1 Hr.
        assert (Hpre1 : pre I p1 st1 gs).
        { refine (proj2 (proj2 (post_ok_inv (G := good_node I) _ Hr))). apply (ron_post E HE); [exact Hst|].
          apply (notrack_post E); [exact Hst|]. exact (tparse_boundaries E HE n inh e pos st gs (proj1 Hg) Hpre). }
        apply ron_ok_inv in Hr; [|exact Hfix]. apply notrack_ok_inv in Hr. destruct Hr as [st2 Hp].
        pose proof (tparse_progress n inh e pos st gs p1 t1 st2 Hg Hpre Hne Hp) as Hlt.
        apply IH; [exact Hpre1| |exact (loop_next Hlf Hlt (pre_le_end Hpre1))].
        intros pos' st' Hle. apply Hcall. exact (Nat.le_trans _ _ _ (Nat.lt_le_incl _ _ Hlt) Hle).
    Qed.

    Lemma skip_term pos st gs k : pre I pos st gs -> skip_rank c < k -> fits n 0 pos k ->
      skip_p E P n pos st <> Fuel.
    Proof.
      intros Hpre Hsk Hf. unfold skip_p. destruct (e_skip E) as [|se] eqn:Hs in |- *; [discriminate|].
      destruct (skip_checked se Hs) as (Hg & Hne & Hh).
      apply (arep_term false se gs Hg Hne); [exact Hpre| |exact (fits_loop Hf)].
      intros pos' st'. exact (call (fits_rank Hf Hsk (skip_depth se Hs)) Hg (le_n _) Hh).
    Qed.

    Lemma pre_skip_term b doit pos st gs k : pre I pos st gs -> fits n 0 pos k ->
      (b && doit = true -> skip_rank c < k) -> pre_skip_p E P n b doit pos st <> Fuel.
    Proof.
      intros Hpre Hf Hsk. unfold pre_skip_p. destruct b; [|discriminate]. destruct doit; [|discriminate].
      apply nf_match; [exact (skip_term pos st gs k Hpre (Hsk eq_refl) Hf)|intros [] ? _; discriminate|discriminate].
    Qed.

    Lemma seq_term (b inh : bool) d : forall es first pos st acc gs k,
      Forall good es -> Forall (fun e => depth e <= d) es -> pre I pos st gs ->
      ranks_lt k (seq_heads (head_ranks c inh) (may_be_empty c) (if b then [skip_rank c] else []) first es) ->
      fits n d pos k -> seq_p E P n b inh es first pos st acc <> Fuel.
    Proof.
      induction es as [|e es IH]; intros first pos st acc gs k Hg Hd Hpre Hh Hf; cbn [seq_p]; [discriminate|].
      apply Forall_cons_iff in Hg. destruct Hg as [Hge Hges]. apply Forall_cons_iff in Hd. destruct Hd as [Hde Hdes].
      rewrite seq_heads_cons in Hh. apply ranks_lt_app in Hh. destruct Hh as [Hh1 Hh2].
      apply ranks_lt_app in Hh2. destruct Hh2 as [Hh2 Hh3].
      apply nf_match; [| |discriminate].
      - apply (pre_skip_term b (negb first) pos st gs k Hpre (fits_le Hf (Nat.le_0_l d))).
        destruct b, first; try discriminate. intros _. exact (ranks_lt_head skip_rank_lt Hh1).
      - intros [p1 sk] st1 Hsk. destruct (pre_skip_ran Hpre Hsk) as [Hle1 Hpre1].
        apply nf_match; [exact (call Hf Hge Hde Hh2 Hle1 Hpre1)| |discriminate].
        intros [p2 t2] st2 Hp. destruct (ran n (tparse_progress n) Hge Hpre1 Hp) as [Ha Hpre2].
        destruct (may_be_empty c e).
        + exact (IH false p2 st2 _ gs k Hges Hdes Hpre2 Hh3 (fits_at Hf (Nat.le_trans _ _ _ Hle1 Ha))).
        + apply (IH false p2 st2 _ gs K Hges Hdes Hpre2 (or_introl eq_refl)).
          exact (fits_later Hf (Nat.le_lt_trans _ _ _ Hle1 Ha) (pre_le_end Hpre2)).
    Qed.

    Lemma choice_term inh m d : forall es i pos st gs k,
      Forall good es -> Forall (fun e => depth e <= d) es -> pre I pos st gs ->
      ranks_lt k (flat_map (head_ranks c inh) es) ->
      fits n d pos k -> choice_p E P inh m es i pos st <> Fuel.
    Proof.
      induction es as [|e es IH]; intros i pos st gs k Hg Hd Hpre Hh Hf; cbn [choice_p]; [discriminate|].
      apply Forall_cons_iff in Hg. destruct Hg as [Hge Hges]. apply Forall_cons_iff in Hd. destruct Hd as [Hde Hdes].
      cbn [flat_map] in Hh. apply ranks_lt_app in Hh. destruct Hh as [Hh1 Hh2]. apply nf_match.
      - apply ron_fuel; [exact Hfix|]. exact (call Hf Hge Hde Hh1 (le_n _) Hpre).
      - intros [] ? _; discriminate.
      - intros st1 Hr. exact (IH (S i) pos st1 gs k Hges Hdes (alt_failed Hge Hpre Hr) Hh2 Hf).
    Qed.

    (* iteration 0 runs where the repetition started, with no skip in front; every later one runs
       strictly later, where anything may be called *)
    Lemma rep_term b inh mn mx e gs d pos0 k :
      good e -> may_be_empty c e = false -> heads_lt inh e k -> depth e <= d -> fits n d pos0 k ->
      forall lf i pos st acc, pre I pos st gs -> (i = 0 /\ pos = pos0) \/ pos0 < pos ->
      i_end I - pos < lf -> rep_p E P n lf b inh mn mx e i pos st acc <> Fuel.
    Proof.
      intros Hg Hne Hh Hd Hf. induction lf as [|lf IH]; intros i pos st acc Hpre Hinv Hlf; [inversion Hlf|].
      cbn [rep_p]. destruct (below i mx); [|destruct (e_rep_min_after E && (i <? mn)); discriminate].
      assert (Hle0 : pos0 <= pos) by (destruct Hinv as [[_ ->]|H]; [apply le_n|exact (Nat.lt_le_incl _ _ H)]).
      apply nf_match.
      - apply ron_fuel; [exact Hfix|]. apply nf_match; [| |discriminate].
        + destruct Hinv as [[-> ->]|Hlt]; [destruct b; discriminate|].
          apply (pre_skip_term b _ pos st gs K Hpre); [|intros _; exact skip_rank_lt].
          exact (fits_le (fits_later Hf Hlt (pre_le_end Hpre)) (Nat.le_0_l d)).
        + intros [p1 sk] st1 Hsk. destruct (pre_skip_ran Hpre Hsk) as [Hle1 Hpre1].
          apply nf_match; [|intros [] ? _; discriminate|discriminate].
          exact (call Hf Hg Hd Hh (Nat.le_trans _ _ _ Hle0 Hle1) Hpre1).
      - intros [p1 it] st1 Hr. destruct (iter_ran n (tparse_progress n) Hg Hne Hpre Hr) as (Hlt & _ & Hpre1).
        exact (IH _ _ _ _ Hpre1 (or_intror (Nat.le_lt_trans _ _ _ Hle0 Hlt)) (loop_next Hlf Hlt (pre_le_end Hpre1))).
      - intros st1 _. destruct (i <? mn); discriminate.
    Qed.

    Lemma arr_term inh e gs pos0 : good e ->
      (forall pos' st', pos0 <= pos' -> pre I pos' st' gs -> P inh e pos' st' <> Fuel) ->
      forall m pos st acc, pos0 <= pos -> pre I pos st gs -> arr_p P m inh e pos st acc <> Fuel.
    Proof.
      intros Hg Hcall. induction m as [|m IH]; intros pos st acc Hle Hpre; cbn [arr_p]; [discriminate|].
      apply nf_match; [exact (Hcall pos st Hle Hpre)| |discriminate]. intros [p1 t1] st1 Hp.
      destruct (ran n (tparse_progress n) Hg Hpre Hp) as [Ha Hpre1]. exact (IH _ _ _ (Nat.le_trans _ _ _ Hle (adv_le Ha)) Hpre1).
    Qed.

    Lemma step_term inh e pos st gs k :
      good e -> pre I pos st gs -> heads_lt inh e k -> fits (S n) (depth e) pos k ->
      step_p E P C n inh e pos st <> Fuel.
    Proof.
      intros Hg Hpre Hh Hf. destruct e; cbn [step_p]; cbn [depth] in Hf; apply fits_S in Hf.
      - (* TStr *) apply leaf_match_fuel. discriminate.
      - (* TInsens *) apply leaf_match_fuel. intros p. do 2 (apply lift_fuel; intros ?). discriminate.
      - (* TRange *)
        apply lift_fuel. intros [[p ch]|]; [|discriminate]. do 2 (apply lift_fuel; intros ?).
        destruct (dec1 _) as [[]|]; discriminate.
      - (* TAny *) apply lift_fuel. intros [[p ch]|]; discriminate.
      - (* TSoi *) destruct (i_at_start I pos); discriminate.
      - (* TEoi *) destruct (i_at_end I pos); discriminate.
      - (* TNewline *) apply newline_fuel.
      - (* TCharBy *) apply lift_fuel. intros [[q ch]|]; discriminate.
      - (* TSkipUntil *) destruct (i_skip_until _ _ _ _) as [? p]. apply lift_fuel. discriminate.
      - (* TSkipChars *) apply spanned_fuel. discriminate.
      - (* TSeq *) exact (seq_term _ inh _ es true pos st [] gs k (good_list _ (proj1 Hg) (proj2 Hg)) (depth_list es) Hpre Hh Hf).
      - (* TChoice *) exact (choice_term inh _ _ es 0 pos st gs k (good_list _ (proj1 Hg) (proj2 Hg)) (depth_list es) Hpre Hh Hf).
      - (* TOpt *)
        apply nf_match; [|intros [] ? _; discriminate|discriminate].
        apply ron_fuel; [exact Hfix|]. exact (call (e := e) Hf Hg (le_n _) Hh (le_n _) Hpre).
      - (* TRep *)
        apply (good_body e) in Hg as [Hge Hne]; [|reflexivity..].
        apply (rep_term _ inh mn mx e gs _ pos k Hge Hne Hh (le_n _) Hf); [exact Hpre| |exact (fits_loop Hf)].
        left. split; reflexivity.
      - (* TAtomicRep *)
        apply (good_body e) in Hg as [Hge Hne]; [|reflexivity..].
        apply (arep_term inh e gs Hge Hne); [exact Hpre| |exact (fits_loop Hf)].
        intros pos' st'. exact (call Hf Hge (le_n _) Hh).
      - (* TPos *)
        apply nf_match; [|intros [] ? _; apply lift_fuel; discriminate|intros ? _; apply lift_fuel; discriminate].
        exact (call (e := e) Hf Hg (le_n _) Hh (le_n _) (pre_snapshot Hpre)).
      - (* TNeg *)
        apply nf_match; [|intros ? ? _; apply lift_fuel; discriminate|intros ? _; apply lift_fuel; discriminate].
        exact (call_c (e := e) Hf Hg (le_n _) Hh (pre_snapshot Hpre)).
      - (* TPush *)
        apply nf_match; [|intros [] ? _; apply lift_fuel; discriminate|discriminate].
        exact (call (e := e) Hf Hg (le_n _) Hh (le_n _) Hpre).
      - (* TPeek *) destruct (s_peek _); [|discriminate]. apply lift_fuel. intros txt. apply spanned_fuel. discriminate.
      - (* TPop *)
        destruct (s_pop _) as [[sp|] s']; [|discriminate]. apply lift_fuel. intros txt.
        apply leaf_match_fuel. discriminate.
      - (* TDrop *) destruct (s_pop _) as [[sp|] s']; discriminate.
      - (* TPeekAll *) apply lift_fuel. intros l. apply spanned_fuel. discriminate.
      - (* TPopAll *) apply lift_fuel. intros l. apply spanned_fuel. discriminate.
      - (* TPeekSlice *)
        destruct (stack_slice _ _ _); [|discriminate]. apply lift_fuel. intros l. apply spanned_fuel. discriminate.
      - (* TArr *)
        apply (arr_term inh e gs pos Hg); [|apply le_n|exact Hpre].
        intros pos' st'. exact (call (e := e) Hf Hg (le_n _) Hh).
      - (* TPair *)
        destruct (good_pair Hg) as [Hg1 Hg2]. apply ranks_lt_app in Hh. destruct Hh as [Hh1 Hh2].
        apply nf_match; [exact (call Hf Hg1 (Nat.le_max_l _ _) Hh1 (le_n _) Hpre)| |discriminate].
        intros [p1 t1] st1 Hp1. destruct (ran n (tparse_progress n) Hg1 Hpre Hp1) as [Ha Hpre1].
        apply nf_match; [|intros [] ? _; discriminate|discriminate]. destruct (may_be_empty c e1).
        + exact (call Hf Hg2 (Nat.le_max_r _ _) Hh2 Ha Hpre1).
        + exact (call_after Hf Hg2 (Nat.le_max_r _ _) Ha Hpre1).
      - (* TEmpty *) discriminate.
      - (* TFail *) discriminate.
      - (* TRule: the body is entered with a smaller rank *)
        pose proof (good_rule Hg) as Hin. destruct (rule_checked r Hin) as (Hgb & _ & Hhb).
        specialize (Hhb (resolve arg inh)).
        pose proof (fits_rank Hf (ranks_lt_head (rank_lt r _ Hin) Hh) (rule_depth r Hin)) as Hfb.
        cbv zeta. destruct (r_emis (e_rules E r)).
        + apply nf_match; [|intros ? ? _; apply lift_fuel; discriminate|discriminate].
          exact (call_c Hfb Hgb (le_n _) Hhb (pre_enter Hpre)).
        + apply nf_match; [|intros [] ? _; discriminate|discriminate].
          exact (IHn _ _ pos st gs _ Hgb Hpre Hhb Hfb).
        + apply nf_match; [|intros [] ? _; apply lift_fuel; discriminate|discriminate].
          exact (IHn _ _ pos _ gs _ Hgb (pre_enter Hpre) Hhb Hfb).
    Qed.
  End TermStep.

  Theorem tparse_terminates_ctx : forall n inh e pos st gs k,
    good e -> pre I pos st gs -> heads_lt inh e k -> fits n (depth e) pos k ->
    tparse E n inh e pos st <> Fuel.
  Proof.
    induction n as [|n IH]; intros inh e pos st gs k Hg Hpre Hh Hf.
    - apply fits_loop in Hf. inversion Hf.
    - exact (step_term n IH inh e pos st gs k Hg Hpre Hh Hf).
  Qed.

  Theorem terminates_both : forall fuel inh e pos st gs,
    good e -> pre I pos st gs ->
    fuel_bound rules (e_rules E) (e_skip E) c e (i_end I - pos) <= fuel ->
    tparse E fuel inh e pos st <> Fuel /\ tcheck E fuel inh e pos st <> Fuel.
  Proof.
    intros fuel inh e pos st gs Hg Hpre Hb.
    assert (Hp : tparse E fuel inh e pos st <> Fuel).
    { exact (tparse_terminates_ctx fuel inh e pos st gs K Hg Hpre (or_introl eq_refl) (conj (le_n _) Hb)). }
    split; [exact Hp|]. rewrite (tcheck_erase fuel inh e pos st gs (proj1 Hg) Hpre). apply erase_fuel. exact Hp.
  Qed.

  Theorem entry_points_terminate : forall r fuel, In r rules ->
    fuel_bound rules (e_rules E) (e_skip E) c (TRule r SkOn) (i_end I - i_start I) <= fuel ->
    try_parse_partial E fuel r <> Fuel /\ try_check_partial E fuel r <> Fuel /\
    try_parse E fuel r <> Fuel /\ try_check E fuel r <> Fuel.
  Proof.
    intros r fuel Hin Hb.
    assert (Hg : good (TRule r SkOn)) by (split; [apply lits_ok_rule|apply mem_rule_iff; exact Hin]).
    destruct (terminates_both fuel true (TRule r SkOn) (i_start I) st0 [] Hg (pre_start E HE) Hb) as [Hp Hc].
    assert (Hfull : try_parse E fuel r <> Fuel).
    { apply nf_match; [exact Hp| |discriminate]. intros [pos t] st Hpp.
      destruct (post_ok_inv (try_parse_partial_good E fuel r HE) Hpp) as (Hle & _ & Hpre).
      assert (Heoi : forall pos st, match eoi_attempt E pos st with
                                    | Ok _ st' => Ok t st' | Fail st' => Fail st' | Panic => Panic | Fuel => Fuel
                                    end <> Fuel).
      { intros. unfold eoi_attempt. destruct (i_at_end I _); discriminate. }
      destruct (no_ignore E r); [apply Heoi|].
      apply nf_match; [|intros [] ? _; apply Heoi|discriminate].
      apply (skip_term fuel (tparse_terminates_ctx fuel) pos st [] K Hpre skip_rank_lt).
      exact (fits_at (fits_le (d' := 0) (conj (le_n _) Hb) (Nat.le_0_l _)) Hle). }
    split; [exact Hp|]. split; [exact Hc|]. split; [exact Hfull|].
    rewrite try_check_is_parse.
    - destruct (try_parse E fuel r); cbn [erase_all]; congruence.
    - pose proof (try_parse_good E fuel r HE) as H. intros Hx. rewrite Hx in H. exact H.
  Qed.

  (* with C09: given the fuel, a run returns a value or a failure -- neither Fuel nor Panic *)
  Lemma c11_returns : forall e inh pos st gs,
    lits_ok e -> expr_ok c rules e = true ->
    good_cur I pos -> good_state I st -> SInv (stk st) gs ->
    forall fuel, fuel_bound rules (e_rules E) (e_skip E) c e (i_end I - pos) <= fuel ->
    match tparse E fuel inh e pos st with
    | Ok (pos', _) _ => pos <= pos' <= i_end I
    | Fail _ => True
    | Panic => False
    | Fuel => False
    end.
  Proof.
    intros e inh pos st gs Hl He Hc Hst Hi fuel Hb.
    pose proof (mk_pre _ pos st gs Hc Hst Hi) as Hpre.
    destruct (terminates_both fuel inh e pos st gs (conj Hl He) Hpre Hb) as [Hp _].
    pose proof (tparse_boundaries E HE fuel inh e pos st gs Hl Hpre) as H9. cbn [post] in H9.
    destruct (tparse E fuel inh e pos st) as [[pos' t] st'|st'| |]; try tauto.
    destruct H9 as (H1 & (_ & H2) & _). lia.
  Qed.
End Wf.

Lemma c11_terminates_ex : forall E rules c, env_ok E -> wf_cert rules (e_rules E) (e_skip E) c = true ->
  forall e inh pos st gs,
  lits_ok e -> expr_ok c rules e = true ->
  good_cur (e_inp E) pos -> good_state (e_inp E) st -> SInv (stk st) gs ->
  exists fuel, forall fuel', fuel <= fuel' ->
    tparse E fuel' inh e pos st <> Fuel /\ tcheck E fuel' inh e pos st <> Fuel.
Proof.
  intros E rules c HE Hwf e inh pos st gs Hl He Hc Hst Hi.
  exists (fuel_bound rules (e_rules E) (e_skip E) c e (i_end (e_inp E) - pos)). intros fuel' Hb.
  exact (terminates_both E rules c HE Hwf fuel' inh e pos st gs (conj Hl He) (mk_pre _ pos st gs Hc Hst Hi) Hb).
Qed.
