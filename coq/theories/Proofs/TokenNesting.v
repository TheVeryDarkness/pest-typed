(* C15, parser-driven half: the token tree of every parse result is well nested and ordered.

   "children() are the direct child tokens in input order ... All spans are nested in their parent and
   ordered among siblings."

   [tokens_nested] has no hypothesis on the environment, the expression, the cursor or the state: every
   cursor operation returns `cur + n`, the positions returned by `skip_until` are checked by the
   `start.span(end)` that follows (a span with end < start makes the model panic, and a panicking run is
   not a successful run), and a rule's span is built by the same `start.span(end)` from (cursor before,
   cursor after). *)
From Coq Require Import List NArith Arith Bool Sorted.
From PT Require Import Model.Base Model.Stack Model.Texpr Model.Sem Model.Tok Model.Tokens.
From PT Require Import Model.Traverse.
From PT Require Import Proofs.BaseFacts Proofs.SkipPositions Proofs.Boundary Proofs.ResFacts.
Import ListNotations.

(* the inner [chain] is [nested s e cs] ([tok_ok_eq]), written out because [nested] itself calls [tok_ok] *)
Fixpoint tok_ok (t : tok) : Prop :=
  match t with
  | Tok _ s e cs =>
      (fix chain (lo : nat) (l : list tok) {struct l} : Prop :=
         match l with
         | [] => lo <= e
         | c :: l' => lo <= tok_start c /\ tok_ok c /\ chain (tok_end c) l'
         end) s cs
  end.

(* toks lie inside [lo, hi], in order, each well formed *)
Fixpoint nested (lo hi : nat) (toks : list tok) {struct toks} : Prop :=
  match toks with
  | [] => lo <= hi
  | c :: l' => lo <= tok_start c /\ tok_ok c /\ nested (tok_end c) hi l'
  end.

Lemma tok_ok_eq r s e cs : tok_ok (Tok r s e cs) <-> nested s e cs.
Proof.
  cbn [tok_ok]. generalize s as lo.
  induction cs as [|c cs IH]; intros lo; [reflexivity|].
  split; intros (H1 & H2 & H3); (split; [exact H1|split; [exact H2|apply IH; exact H3]]).
Qed.

Lemma tok_ind2 (Q : tok -> Prop) :
  (forall r s e cs, Forall Q cs -> Q (Tok r s e cs)) -> forall t, Q t.
Proof.
  intros H. fix IH 1. intros [r s e cs]. apply H.
  induction cs as [|c cs IHcs]; constructor; [apply IH|exact IHcs].
Qed.

Lemma nested_le_gen l :
  Forall (fun c => tok_ok c -> tok_start c <= tok_end c) l ->
  forall lo hi, nested lo hi l -> lo <= hi.
Proof.
  induction 1 as [|c l Hc Hl IH]; intros lo hi; [exact (fun H => H)|].
  intros (H1 & H2 & H3). exact (Nat.le_trans _ _ _ H1 (Nat.le_trans _ _ _ (Hc H2) (IH _ _ H3))).
Qed.

Lemma tok_ok_le t : tok_ok t -> tok_start t <= tok_end t.
Proof.
  induction t as [r s e cs IH] using tok_ind2.
  rewrite tok_ok_eq. apply nested_le_gen. exact IH.
Qed.

Lemma nested_le lo hi l : nested lo hi l -> lo <= hi.
Proof. apply nested_le_gen, Forall_forall. intros c _. apply tok_ok_le. Qed.

Lemma nested_nil lo hi : lo <= hi -> nested lo hi [].
Proof. intros H. exact H. Qed.

Lemma nested_widen_lo lo lo' hi l : lo' <= lo -> nested lo hi l -> nested lo' hi l.
Proof.
  intros Hle. destruct l as [|c l]; [exact (Nat.le_trans _ _ _ Hle)|].
  intros (H1 & H2). exact (conj (Nat.le_trans _ _ _ Hle H1) H2).
Qed.

Lemma nested_widen_hi lo hi hi' l : hi <= hi' -> nested lo hi l -> nested lo hi' l.
Proof.
  intros Hle. revert lo. induction l as [|c l IH]; intros lo; [exact (fun H => Nat.le_trans _ _ _ H Hle)|].
  intros (H1 & H2 & H3). exact (conj H1 (conj H2 (IH _ H3))).
Qed.

Lemma nested_widen lo lo' hi hi' l : lo' <= lo -> hi <= hi' -> nested lo hi l -> nested lo' hi' l.
Proof. intros H1 H2 H. exact (nested_widen_lo lo lo' hi' l H1 (nested_widen_hi lo hi hi' l H2 H)). Qed.

Lemma nested_app a b c l1 l2 : nested a b l1 -> nested b c l2 -> nested a c (l1 ++ l2).
Proof.
  revert a. induction l1 as [|x l1 IH]; intros a.
  - intros Hab H2. exact (nested_widen_lo b a c l2 Hab H2).
  - intros (H1 & Hx & H3) H2. exact (conj H1 (conj Hx (IH _ H3 H2))).
Qed.

Lemma nested_app_inv a c l1 l2 : nested a c (l1 ++ l2) ->
  exists b, nested a b l1 /\ nested b c l2.
Proof.
  revert a. induction l1 as [|x l1 IH]; intros a.
  - intros H. exists a. exact (conj (le_n a) H).
  - intros (H1 & Hx & H3). destruct (IH _ H3) as (b & Hb1 & Hb2).
    exists b. exact (conj (conj H1 (conj Hx Hb1)) Hb2).
Qed.

(* the loops of the parse path collect their nodes in reverse *)
Lemma nested_snoc {A} (f : A -> list tok) a b c acc x :
  nested a b (flat_map f (rev acc)) -> nested b c (f x) -> nested a c (flat_map f (rev (x :: acc))).
Proof.
  intros H1 H2. cbn [rev]. rewrite flat_map_app. cbn [flat_map]. rewrite app_nil_r.
  exact (nested_app a b c _ _ H1 H2).
Qed.

Lemma nested_single r s e cs : nested s e cs -> nested s e [Tok r s e cs].
Proof. intros H. exact (conj (le_n s) (conj (proj2 (tok_ok_eq r s e cs) H) (le_n e))). Qed.

Lemma nested_single_inv lo hi r s e cs : nested lo hi [Tok r s e cs] ->
  lo <= s /\ s <= e /\ e <= hi /\ nested s e cs.
Proof.
  intros (H1 & H2 & H3). apply tok_ok_eq in H2. exact (conj H1 (conj (nested_le _ _ _ H2) (conj H3 H2))).
Qed.

Definition tok_before (a b : tok) : Prop := tok_end a <= tok_start b.

Lemma nested_spec lo hi l : nested lo hi l ->
  lo <= hi /\ Forall (fun c => tok_ok c /\ lo <= tok_start c /\ tok_end c <= hi) l /\
  StronglySorted tok_before l.
Proof.
  revert lo. induction l as [|c l IH]; intros lo.
  - intros H. exact (conj H (conj (Forall_nil _) (SSorted_nil _))).
  - intros (H1 & H2 & H3). destruct (IH _ H3) as (Hle & Hall & Hs). pose proof (tok_ok_le c H2) as Hc.
    split; [exact (Nat.le_trans _ _ _ H1 (Nat.le_trans _ _ _ Hc Hle))|]. split.
    + constructor; [exact (conj H2 (conj H1 Hle))|]. eapply Forall_impl; [|exact Hall].
      intros x (Hx & G1 & G2). exact (conj Hx (conj (Nat.le_trans _ _ _ H1 (Nat.le_trans _ _ _ Hc G1)) G2)).
    + constructor; [exact Hs|]. eapply Forall_impl; [|exact Hall]. intros x (_ & G1 & _). exact G1.
Qed.

Lemma nested_In lo hi l : nested lo hi l -> forall r s e cs, In (Tok r s e cs) l ->
  lo <= s /\ s <= e /\ e <= hi /\ nested s e cs.
Proof.
  intros H r s e cs Hin. destruct (nested_spec lo hi l H) as (_ & Hall & _).
  destruct (proj1 (Forall_forall _ _) Hall _ Hin) as (Hok & G1 & G2). apply tok_ok_eq in Hok.
  exact (conj G1 (conj (nested_le _ _ _ Hok) (conj G2 Hok))).
Qed.

Lemma nested_StronglySorted lo hi l : nested lo hi l -> StronglySorted tok_before l.
Proof. intros H. exact (proj2 (proj2 (nested_spec lo hi l H))). Qed.

Lemma nested_Sorted lo hi l : nested lo hi l -> Sorted tok_before l.
Proof. intros H. exact (StronglySorted_Sorted (nested_StronglySorted lo hi l H)). Qed.

Lemma StronglySorted_nth {A} (R : A -> A -> Prop) l : StronglySorted R l -> forall i j a b,
  i < j -> nth_error l i = Some a -> nth_error l j = Some b -> R a b.
Proof.
  induction 1 as [|c l Hs IH Hall]; intros i j a b Hij Ha Hb; [destruct i; discriminate|].
  destruct j as [|j]; [destruct (Nat.nlt_0_r _ Hij)|]. destruct i as [|i].
  - injection Ha as <-. exact (proj1 (Forall_forall _ _) Hall b (nth_error_In l j Hb)).
  - apply (IH i j); [apply Nat.succ_lt_mono, Hij|exact Ha|exact Hb].
Qed.

Lemma nested_ordered lo hi l : nested lo hi l -> forall i j a b,
  i < j -> nth_error l i = Some a -> nth_error l j = Some b -> tok_end a <= tok_start b.
Proof. intros H. exact (StronglySorted_nth tok_before l (nested_StronglySorted lo hi l H)). Qed.

Lemma nested_consecutive lo hi l : nested lo hi l -> forall i a b,
  nth_error l i = Some a -> nth_error l (S i) = Some b -> tok_end a <= tok_start b.
Proof. intros H i a b. exact (nested_ordered lo hi l H i (S i) a b (Nat.lt_succ_diag_r i)). Qed.

Lemma nested_siblings lo hi l : nested lo hi l ->
  Sorted tok_before l /\
  (forall i a b, nth_error l i = Some a -> nth_error l (S i) = Some b -> tok_end a <= tok_start b) /\
  (forall i j a b, i < j -> nth_error l i = Some a -> nth_error l j = Some b -> tok_end a <= tok_start b) /\
  Forall (fun a => lo <= tok_start a /\ tok_start a <= tok_end a /\ tok_end a <= hi) l.
Proof.
  intros H. split; [exact (nested_Sorted lo hi l H)|]. split; [exact (nested_consecutive lo hi l H)|].
  split; [exact (nested_ordered lo hi l H)|]. destruct (nested_spec lo hi l H) as (_ & Hall & _).
  eapply Forall_impl; [|exact Hall]. intros c (Hc & G1 & G2). exact (conj G1 (conj (tok_ok_le c Hc) G2)).
Qed.

Lemma tok_ok_all t : tok_ok t -> forall d, In d (all_tokens t) ->
  tok_ok d /\ tok_start t <= tok_start d /\ tok_end d <= tok_end t.
Proof.
  induction t as [r s e cs IH] using tok_ind2. intros Hok d [<-|Hin].
  - exact (conj Hok (conj (le_n _) (le_n _))).
  - apply in_flat_map in Hin. destruct Hin as (c & Hc & Hd).
    apply tok_ok_eq, nested_spec in Hok. destruct Hok as (_ & Hall & _).
    destruct (proj1 (Forall_forall _ _) Hall c Hc) as (Hokc & G1 & G2).
    destruct (proj1 (Forall_forall _ _) IH c Hc Hokc d Hd) as (K1 & K2 & K3).
    exact (conj K1 (conj (Nat.le_trans _ _ _ G1 K2) (Nat.le_trans _ _ _ K3 G2))).
Qed.

Lemma tok_ok_children d : tok_ok d ->
  tok_start d <= tok_end d /\
  Forall (fun c => tok_start d <= tok_start c /\ tok_start c <= tok_end c /\ tok_end c <= tok_end d)
         (tok_children d) /\
  StronglySorted tok_before (tok_children d).
Proof.
  destruct d as [r s e cs]. intros Hd. apply tok_ok_eq, nested_spec in Hd. destruct Hd as (Hle & Hall & Hs).
  split; [exact Hle|]. split; [|exact Hs]. eapply Forall_impl; [|exact Hall].
  intros c (Hc & G1 & G2). exact (conj G1 (conj (tok_ok_le c Hc) G2)).
Qed.

Lemma nested_everywhere lo hi l : nested lo hi l ->
  forall top d, In top l -> In d (all_tokens top) ->
    lo <= tok_start d /\ tok_start d <= tok_end d /\ tok_end d <= hi /\
    Forall (fun c => tok_start d <= tok_start c /\ tok_start c <= tok_end c /\ tok_end c <= tok_end d)
           (tok_children d) /\
    StronglySorted tok_before (tok_children d).
Proof.
  intros H top d Htop Hd. destruct (nested_spec lo hi l H) as (_ & Hall & _).
  destruct (proj1 (Forall_forall _ _) Hall top Htop) as (Hok & G1 & G2).
  destruct (tok_ok_all top Hok d Hd) as (Hokd & K2 & K3).
  destruct (tok_ok_children d Hokd) as (C1 & C2).
  exact (conj (Nat.le_trans _ _ _ G1 K2) (conj C1 (conj (Nat.le_trans _ _ _ K3 G2) C2))).
Qed.

(* cursors of successful operations never move backwards: each returns a cursor at least [n] further ([*_range], BaseFacts.v) *)
Lemma range_mono {pos n p hi} : pos + n <= p <= hi -> pos <= p.
Proof. intros [H _]. exact (Nat.le_trans _ _ _ (Nat.le_add_r _ _) H). Qed.

Lemma peek_spans_mono E : forall sps pos p, peek_spans E sps pos = MOk (Some p) -> pos <= p.
Proof.
  induction sps as [|sp sps IH]; intros pos p; cbn [peek_spans].
  - intros [= <-]. apply le_n.
  - destruct (span_str (e_inp E) sp) as [txt|]; cbn [mbind]; [|discriminate].
    destruct (i_match_string (e_inp E) txt pos) as [[p1|]|] eqn:Hm; cbn [mbind]; try discriminate.
    intros H. exact (Nat.le_trans _ _ _ (range_mono (match_string_range _ _ _ _ Hm)) (IH _ _ H)).
Qed.

Lemma okp_leaf (G : nat * tnode -> Prop) m st k :
  (forall p, m = MOk (Some p) -> okp G (k p)) -> okp G (leaf_match m st k).
Proof. intros H. apply okp_lift. intros [p|] ->; [apply H; reflexivity|exact I]. Qed.

Definition within {A} (f : A -> list tok) (pos : nat) (pa : nat * A) : Prop :=
  nested pos (fst pa) (f (snd pa)).

Lemma rule_tokens E r content s e :
  r_emis (e_rules E r) <> EmExpr ->
  tokens E (NRule r content (Some (s, e))) =
  [Tok r s e (if has_children E r then match content with Some c => tokens E c | None => [] end else [])].
Proof. intros Hem. cbn [tokens]. destruct (r_emis (e_rules E r)); [reflexivity|contradiction|reflexivity]. Qed.

Lemma rule_node_nested E r content pos p :
  r_emis (e_rules E r) <> EmExpr -> pos <= p ->
  match content with Some c => nested pos p (tokens E c) | None => True end ->
  nested pos p (tokens E (NRule r content (Some (pos, p)))).
Proof.
  intros Hem Hle Hc. rewrite (rule_tokens E r content pos p Hem). apply nested_single.
  destruct (has_children E r); [destruct content; [exact Hc|exact Hle]|exact Hle].
Qed.

Section Nest.
  Variable E : env.
  Variable P : bool -> texpr -> nat -> state -> res (nat * tnode).
  Variable C : bool -> texpr -> nat -> state -> res nat.

  Definition item_toks (it : list tnode * tnode) : list tok :=
    flat_map (tokens E) (fst it) ++ tokens E (snd it).

  Hypothesis HP : forall inh e pos st, okp (within (tokens E) pos) (P inh e pos st).

  Lemma arep_nest n : forall inh e pos st acc pos0,
    nested pos0 pos (flat_map (tokens E) (rev acc)) ->
    okp (within (tokens E) pos0) (arep_p E P n inh e pos st acc).
  Proof.
    induction n as [|n IH]; intros inh e pos st acc pos0 Hacc; [exact I|].
    eapply okp_bind; [apply ron_okp; intros s; apply notrack_okp, HP| |intros s; exact Hacc].
    intros [p t] s Hr. apply IH. exact (nested_snoc (tokens E) _ _ _ _ _ Hacc Hr).
  Qed.

  Variable lf : nat.

  Lemma skip_nest pos st : okp (within (tokens E) pos) (skip_p E P lf pos st).
  Proof. unfold skip_p. destruct (e_skip E); [exact (le_n pos)|apply arep_nest; exact (le_n pos)]. Qed.

  Lemma pre_skip_nest b doit pos st :
    okp (within (flat_map (tokens E)) pos) (pre_skip_p E P lf b doit pos st).
  Proof.
    unfold pre_skip_p. destruct b; [destruct doit|].
    - eapply okp_bind; [apply skip_nest| |intros s; exact I].
      intros [p t] s Hr. exact (nested_app _ _ _ _ [] Hr (le_n p)).
    - change (nested pos pos (tokens E (skip_default E) ++ [])). rewrite skip_default_tokens. exact (le_n pos).
    - exact (le_n pos).
  Qed.

  Lemma seq_nest b inh : forall es first pos st acc pos0,
    nested pos0 pos (flat_map item_toks (rev acc)) ->
    okp (within (tokens E) pos0) (seq_p E P lf b inh es first pos st acc).
  Proof.
    induction es as [|e es IH]; intros first pos st acc pos0 Hacc; [exact Hacc|].
    eapply okp_bind; [apply pre_skip_nest| |intros s; exact I]. intros [p1 sk] s1 H1.
    eapply okp_bind; [apply HP| |intros s; exact I]. intros [p2 t] s2 H2.
    apply IH. exact (nested_snoc item_toks _ _ _ _ (sk, t) Hacc (nested_app _ _ _ _ _ H1 H2)).
  Qed.

  Lemma choice_nest inh n : forall es i pos st, okp (within (tokens E) pos) (choice_p E P inh n es i pos st).
  Proof.
    induction es as [|e es IH]; intros i pos st; [exact I|].
    eapply okp_bind; [apply ron_okp, HP| |intros s; apply IH]. intros [p t] s Hr. exact Hr.
  Qed.

  Lemma unit_nest b inh e i pos st : okp (within item_toks pos) (unit_p E P lf b inh e i pos st).
  Proof.
    eapply okp_bind; [apply pre_skip_nest| |intros s; exact I]. intros [p1 sk] s1 H1.
    eapply okp_bind; [apply HP| |intros s; exact I]. intros [p2 t] s2 H2. exact (nested_app _ _ _ _ _ H1 H2).
  Qed.

  Lemma rep_nest b inh mn mx e : forall n i pos st acc pos0,
    nested pos0 pos (flat_map item_toks (rev acc)) ->
    okp (within (tokens E) pos0) (rep_p E P lf n b inh mn mx e i pos st acc).
  Proof.
    induction n as [|n IH]; intros i pos st acc pos0 Hacc; cbn [rep_p];
      (destruct (below i mx); [|destruct (_ && _); [exact I|exact Hacc]]).
    - exact I.
    - eapply okp_bind; [apply ron_okp, unit_nest| |].
      + intros [p it] s Hr. apply IH. exact (nested_snoc item_toks _ _ _ _ it Hacc Hr).
      + intros s. destruct (i <? mn); [exact I|exact Hacc].
  Qed.

  Lemma arr_nest inh e : forall n pos st acc pos0,
    nested pos0 pos (flat_map (tokens E) (rev acc)) ->
    okp (within (tokens E) pos0) (arr_p P n inh e pos st acc).
  Proof.
    induction n as [|n IH]; intros pos st acc pos0 Hacc; [exact Hacc|].
    eapply okp_bind; [apply HP| |intros s; exact I].
    intros [p t] s Hr. apply IH. exact (nested_snoc (tokens E) _ _ _ _ _ Hacc Hr).
  Qed.

  Lemma newline_nest : forall alts pos st, okp (within (tokens E) pos) (newline_p E alts pos st).
  Proof.
    induction alts as [|[bs k] alts IH]; intros pos st; [exact I|].
    apply okp_lift. intros [p'|] Ho; [exact (range_mono (match_string_range _ _ _ _ Ho))|apply IH].
  Qed.

  (* for a node [t] without tokens, [okp (within (tokens E) pos) (Ok (p, t) st)] is [pos <= p] *)
  Lemma step_nest inh e pos st : okp (within (tokens E) pos) (step_p E P C lf inh e pos st).
  Proof.
    destruct e; cbn [step_p].
    - apply okp_leaf. intros p Hm. exact (range_mono (match_string_range _ _ _ _ Hm)).
    - apply okp_leaf. intros p Hm. do 2 (apply okp_lift; intros ? _). exact (range_mono (match_insens_range _ _ _ _ Hm)).
    - apply okp_lift. intros [[p c]|] Hm; [|exact I]. do 2 (apply okp_lift; intros ? _).
      destruct (dec1 _) as [[c' l]|]; [|exact I]. exact (range_mono (match_char_range _ _ _ _ _ Hm)).
    - apply okp_lift. intros [[p c]|] Hm; [|exact I]. exact (range_mono (match_char_range _ _ _ _ _ Hm)).
    - destruct (i_at_start _ pos); [exact (le_n pos)|exact I].
    - destruct (i_at_end _ pos); [exact (le_n pos)|exact I].
    - apply newline_nest.
    - apply okp_lift. intros [[q c]|] Hm; [|exact I]. exact (range_mono (match_char_range _ _ _ _ _ Hm)).
    - destruct (i_skip_until _ _ _ pos) as [f p'].
      apply okp_lift. intros sp Hsp. exact (proj2 (i_span_ok _ _ _ _ Hsp)).
    - apply okp_leaf. intros p Hm. apply okp_lift; intros ? _. exact (range_mono (skip_range _ _ _ _ Hm)).
    - apply seq_nest. exact (le_n pos).
    - apply choice_nest.
    - eapply okp_bind; [apply ron_okp, HP| |intros s; exact (le_n pos)]. intros [p t] s Hr. exact Hr.
    - apply rep_nest. exact (le_n pos).
    - apply arep_nest. exact (le_n pos).
    - eapply okp_bind; [apply HP| |]; [intros [p t] s _|intros s]; apply okp_lift; intros ? _;
        [exact (le_n pos)|exact I].
    - destruct (C inh e pos _); try exact I; apply okp_lift; intros ? _; [exact I|exact (le_n pos)].
    - eapply okp_bind; [apply HP| |intros s; exact I].
      intros [p t] s Hr. apply okp_lift; intros ? _. exact Hr.
    - destruct (s_peek (stk st)); [|exact I]. apply okp_lift; intros txt _.
      apply okp_leaf. intros p Hm. apply okp_lift; intros ? _. exact (range_mono (match_string_range _ _ _ _ Hm)).
    - destruct (s_pop (stk st)) as [[sp|] s']; [|exact I]. apply okp_lift; intros txt _.
      apply okp_leaf. intros p Hm. exact (range_mono (match_string_range _ _ _ _ Hm)).
    - destruct (s_pop (stk st)) as [[sp|] s']; [exact (le_n pos)|exact I].
    - apply okp_lift; intros bf _.
      apply okp_leaf. intros p Hm. apply okp_lift; intros ? _. exact (peek_spans_mono _ _ _ _ Hm).
    - apply okp_lift; intros bf _.
      apply okp_leaf. intros p Hm. apply okp_lift; intros ? _. exact (peek_spans_mono _ _ _ _ Hm).
    - destruct (stack_slice (stk st) a b); [|exact I]. apply okp_lift; intros sps _.
      apply okp_leaf. intros p Hm. apply okp_lift; intros ? _. exact (peek_spans_mono _ _ _ _ Hm).
    - apply arr_nest. exact (le_n pos).
    - eapply okp_bind; [apply HP| |intros s; exact I]. intros [p1 t1] s1 H1.
      eapply okp_bind; [apply HP| |intros s; exact I]. intros [p2 t2] s2 H2. exact (nested_app _ _ _ _ _ H1 H2).
    - exact (le_n pos).
    - exact I.
    - destruct (r_emis (e_rules E r)) eqn:Hem.
      + (* span-only: matched through the check path *)
        destruct (C _ _ pos _) as [p s'|s'| |]; try exact I.
        apply okp_lift. intros sp Hsp. apply i_span_ok in Hsp as [-> Hle].
        apply rule_node_nested; [rewrite Hem; discriminate|exact Hle|exact I].
      + (* silent: transparent *)
        eapply okp_bind; [apply HP| |intros s; exact I]. intros [p t] s Hr.
        change (nested pos p (tokens E (NRule r (Some t) None))). rewrite (silent_transparent E r t Hem). exact Hr.
      + (* a token with the tokens of the body as children *)
        eapply okp_bind; [apply HP| |intros s; exact I]. intros [p t] s Hr.
        apply okp_lift. intros sp Hsp. apply i_span_ok in Hsp as [-> Hle].
        apply rule_node_nested; [rewrite Hem; discriminate|exact Hle|exact Hr].
  Qed.
End Nest.

Lemma tparse_nest E : forall fuel inh e pos st, okp (within (tokens E) pos) (tparse E fuel inh e pos st).
Proof. induction fuel as [|n IH]; intros inh e pos st; [exact I|]. apply step_nest. exact IH. Qed.

Theorem tokens_nested : forall E fuel inh e pos st p t st',
  tparse E fuel inh e pos st = Ok (p, t) st' -> nested pos p (tokens E t).
Proof.
  intros E fuel inh e pos st p t st' H.
  pose proof (tparse_nest E fuel inh e pos st) as Hn. rewrite H in Hn. exact Hn.
Qed.

Corollary tparse_cursor_mono : forall E fuel inh e pos st p t st',
  tparse E fuel inh e pos st = Ok (p, t) st' -> pos <= p.
Proof.
  intros E fuel inh e pos st p t st' H. exact (nested_le _ _ _ (tokens_nested E fuel inh e pos st p t st' H)).
Qed.

(* the statement in the shape of C09 (the hypotheses are not used) *)
Corollary tokens_nested_c09 : forall E, env_ok E -> forall fuel inh e pos st gs p t st',
  lits_ok e -> pre (e_inp E) pos st gs ->
  tparse E fuel inh e pos st = Ok (p, t) st' -> nested pos p (tokens E t).
Proof. intros E _ fuel inh e pos st gs p t st' _ _. apply tokens_nested. Qed.

Corollary entry_tokens_nested : forall E fuel r p t st',
  try_parse_partial E fuel r = Ok (p, t) st' -> nested (i_start (e_inp E)) p (tokens E t).
Proof. intros E fuel r. exact (tokens_nested E fuel true (TRule r SkOn) (i_start (e_inp E)) st0). Qed.

(* the full-parse entry point returns the node of its partial parse *)
Corollary try_parse_tokens_nested : forall E fuel r t st',
  try_parse E fuel r = Ok t st' -> exists p, nested (i_start (e_inp E)) p (tokens E t).
Proof.
  intros E fuel r t st'. unfold try_parse.
  destruct (try_parse_partial E fuel r) as [[p t0] s0| | |] eqn:Hp; try discriminate.
  pose proof (entry_tokens_nested E fuel r p t0 s0 Hp) as Hn.
  destruct (no_ignore E r).
  - destruct (eoi_attempt E p s0); try discriminate. intros [= <- _]. exists p. exact Hn.
  - destruct (top_skip_p E fuel p s0) as [[p' u] s1| | |]; try discriminate.
    destruct (eoi_attempt E p' s1); try discriminate. intros [= <- _]. exists p. exact Hn.
Qed.

Theorem rule_token_children_nested : forall E fuel inh r arg pos st p t st',
  r_emis (e_rules E r) <> EmExpr ->
  tparse E fuel inh (TRule r arg) pos st = Ok (p, t) st' ->
  exists cs, tokens E t = [Tok r pos p cs] /\ nested pos p cs /\
    (cs = [] \/ exists c sp, t = NRule r (Some c) sp /\ cs = tokens E c /\ has_children E r = true).
Proof.
  intros E fuel inh r arg pos st p t st' Hem H.
  pose proof (tokens_nested _ _ _ _ _ _ _ _ _ H) as Hn.
  destruct fuel as [|fuel]; [discriminate|].
  pose proof (rule_body_starts_at_rule_start _ _ _ _ _ _ _ _ _ _ H) as Hr.
  destruct t; try contradiction. destruct sp as [[s e]|]; [|destruct Hr; contradiction].
  destruct Hr as (-> & -> & ->). rewrite (rule_tokens E r content pos p Hem) in *.
  eexists. split; [reflexivity|]. split; [exact (proj2 (proj2 (proj2 (nested_single_inv _ _ _ _ _ _ Hn))))|].
  destruct (has_children E r); [|left; reflexivity].
  destruct content as [c|]; [|left; reflexivity]. right. exists c, (Some (pos, p)). repeat split.
Qed.

Corollary rule_token_nested : forall E fuel inh r arg pos st p c sp st',
  r_emis (e_rules E r) <> EmExpr -> r_atom (e_rules E r) <> Some true ->
  tparse E fuel inh (TRule r arg) pos st = Ok (p, NRule r (Some c) sp) st' ->
  tokens E (NRule r (Some c) sp) = [Tok r pos p (tokens E c)] /\ nested pos p (tokens E c).
Proof.
  intros E fuel inh r arg pos st p c sp st' Hem Hat H.
  destruct fuel as [|fuel]; [discriminate|].
  pose proof (rule_body_starts_at_rule_start _ _ _ _ _ _ _ _ _ _ H) as Hr.
  destruct sp as [[s e]|]; [|destruct Hr; contradiction]. destruct Hr as (_ & -> & ->).
  pose proof (tokens_nested _ _ _ _ _ _ _ _ _ H) as Hn.
  rewrite (rule_token E r c pos p Hem Hat) in *. split; [reflexivity|].
  exact (proj2 (proj2 (proj2 (nested_single_inv _ _ _ _ _ _ Hn)))).
Qed.

(* list  = { &item ~ item ~ item* ~ word }          rule 0, normal
   item  = { "(" ~ word ~ ")" }                     rule 1, normal
   WHITESPACE = { " " }                             rule 2, normal (NOT silent: it yields tokens)
   word  = @{ 'a'..'z'+ }                           rule 3, atomic
   input "(ab) (c)  (d) xy" *)
Definition ex_rules (r : N) : rdef :=
  match r with
  | 0%N => mk_rdef None EmBoth
             (TSeq SkInh [TPos (TRule 1 SkInh); TRule 1 SkInh; TRep SkInh 0 None (TRule 1 SkInh); TRule 3 SkInh])
  | 1%N => mk_rdef None EmBoth (TSeq SkInh [TStr [40%N]; TRule 3 SkInh; TStr [41%N]])
  | 2%N => mk_rdef None EmBoth (TStr [32%N])
  | _ => mk_rdef (Some true) EmSpan (TRep SkOff 1 None (TRange 97%N 122%N))
  end.

Definition ex_input : list byte :=
  [40; 97; 98; 41; 32; 40; 99; 41; 32; 32; 40; 100; 41; 32; 120; 121]%N.

Definition ex_nest_env : env :=
  mk_env (inp_of_str ex_input) ex_rules (SkipRep (TRule 2 SkOff)) (fun _ _ => false) 99%N true true true.

Definition ex_tokens : list tok :=
  [Tok 0 0 16
     [Tok 1 0 4 [Tok 3 1 3 []];
      Tok 2 4 5 [];
      Tok 1 5 8 [Tok 3 6 7 []];
      Tok 2 8 9 []; Tok 2 9 10 [];
      Tok 1 10 13 [Tok 3 11 12 []];
      Tok 2 13 14 [];
      Tok 3 14 16 []]].

Example ex_nest_runs :
  exists t st, try_parse_partial ex_nest_env 40 0%N = Ok (16, t) st /\ tokens ex_nest_env t = ex_tokens.
Proof.
  (* the witnesses are read off the run, so that the proof does not carry their normal forms *)
  pose (r := try_parse_partial ex_nest_env 40 0%N).
  exists (match r with Ok (_, t) _ => t | _ => NEmpty end), (match r with Ok _ st => st | _ => st0 end).
  split; vm_compute; reflexivity.
Qed.

Example ex_nest_nested : nested 0 16 ex_tokens.
Proof. lazy. repeat split; apply leb_complete; reflexivity. Qed.

(* the predicate is not trivially true: swapping two siblings, or a child that sticks out of its parent,
   is rejected *)
Example ex_not_nested_order : ~ nested 0 16 [Tok 2 4 5 []; Tok 1 0 4 []].
Proof. intros (_ & _ & H & _). exact (Nat.nle_succ_0 _ H). Qed.

Example ex_not_nested_child : ~ nested 0 16 [Tok 1 5 8 [Tok 3 6 9 []]].
Proof. intros (_ & (_ & _ & H) & _). apply Nat.leb_le in H. discriminate H. Qed.
