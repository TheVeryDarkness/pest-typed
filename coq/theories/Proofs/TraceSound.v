(* C10 (truthfulness, second half): every exit event of a run is backed by the outcome of the rule's body.
   [tracker_truth] (TrackerProofs.v) ties the report to the events [EExit r p ok] of the trace; this file
   ties every such event to the verdict of the rule body run at [p] in a state just after its enter event. *)
From Coq Require Import List NArith Arith Bool.
From PT Require Import Model.Base Model.Stack Model.Texpr Model.Sem Model.Tracker.
From PT Require Import Proofs.CheckParse Proofs.TrackerProofs.
Import ListNotations.

Definition verdict {A} (r : res A) : option bool :=
  match r with
  | Ok _ _ => Some true
  | Fail _ => Some false
  | Panic => None
  | Fuel => None
  end.

Definition final {A} (r : res A) : option state :=
  match r with
  | Ok _ st => Some st
  | Fail st => Some st
  | Panic => None
  | Fuel => None
  end.

(* an exit event [EExit r p ok] is justified when the body of rule [r], run through the check path at [p] in
   some state just after an [EEnter r p], has exactly the logged outcome.  ([exit_sound] supplies the state
   and the inherited flag the rule was tried with; the statement does not record them.) *)
Definition justified (E : env) (e : event) : Prop :=
  match e with
  | EExit r p ok =>
      exists fuel inh st1,
        verdict (tcheck E fuel inh (r_body (e_rules E r)) p (ev (EEnter r p) st1)) = Some ok
  | _ => True
  end.

Definition sound_from (E : env) (old : list event) (st' : state) : Prop :=
  exists new, tr st' = new ++ old /\ Forall (justified E) new.

Definition rsound {A} (E : env) (old : list event) (r : res A) : Prop :=
  match r with
  | Ok _ st' => sound_from E old st'
  | Fail st' => sound_from E old st'
  | Panic => True
  | Fuel => True
  end.

Lemma sound_from_refl E st : sound_from E (tr st) st.
Proof. exists []. split; [reflexivity|constructor]. Qed.

Lemma sound_from_trans E old st1 st2 :
  sound_from E old st1 -> sound_from E (tr st1) st2 -> sound_from E old st2.
Proof.
  intros (n1 & H1 & F1) (n2 & H2 & F2). exists (n2 ++ n1). split.
  - rewrite H2, H1, app_assoc. reflexivity.
  - apply Forall_app; split; assumption.
Qed.

Lemma sound_from_tr E old st st' : tr st' = tr st -> sound_from E old st -> sound_from E old st'.
Proof. intros Heq (n & H & F). exists n. split; [rewrite Heq; exact H|exact F]. Qed.

Lemma sound_from_stk E old s st : sound_from E old st -> sound_from E old (with_stk s st).
Proof. apply sound_from_tr. reflexivity. Qed.

Lemma sound_from_ev E old e st : justified E e -> sound_from E old st -> sound_from E old (ev e st).
Proof.
  intros J (n & H & F). exists (e :: n). split.
  - cbn [ev tr app]. rewrite H. reflexivity.
  - constructor; assumption.
Qed.

Lemma sound_from_nil E st : sound_from E [] st -> Forall (justified E) (tr st).
Proof. intros (n & H & F). rewrite H, app_nil_r. exact F. Qed.

Lemma rsound_final {A} E old (r : res A) st' : rsound E old r -> final r = Some st' -> sound_from E old st'.
Proof. destruct r; intros H [= <-]; exact H. Qed.

(* [rsound] is compositional: every combinator of Sem.v continues a run by a [match] of this shape *)
Lemma rsound_bind {A B} E old (r : res A) (k : A -> state -> res B) kf :
  rsound E old r ->
  (forall a s, sound_from E old s -> rsound E old (k a s)) ->
  (forall s, sound_from E old s -> rsound E old (kf s)) ->
  rsound E old (match r with Ok a s => k a s | Fail s => kf s | Panic => Panic | Fuel => Fuel end).
Proof. destruct r; cbn [rsound]; auto. Qed.

Lemma lift_sound {X A} E old (m : mres X) (f : X -> res A) :
  (forall x, rsound E old (f x)) -> rsound E old (lift m f).
Proof. intros H. destruct m; [apply H|exact I]. Qed.

Lemma leaf_check_sound E old m st : sound_from E old st -> rsound E old (leaf_check m st).
Proof. intros H0. apply lift_sound. intros [p|]; exact H0. Qed.

Lemma ron_sound {A} E old (f : state -> res A) st :
  (forall s, sound_from E old s -> rsound E old (f s)) ->
  sound_from E old st -> rsound E old (ron E f st).
Proof.
  intros H H0. unfold ron. destruct (e_ron_fixed E).
  - apply rsound_bind; [apply H, H0|auto|]. intros s Hs. apply sound_from_stk, Hs.
  - apply rsound_bind; [apply H, sound_from_stk, H0| |];
      intros; apply lift_sound; intros; apply sound_from_stk; assumption.
Qed.

(* the events of the sub-run are dropped *)
Lemma notrack_sound {A} E old (f : state -> res A) st :
  sound_from E old st -> rsound E old (notrack f st).
Proof.
  intros H0. unfold notrack. destruct (f st); try exact I; exact (sound_from_tr E old st _ eq_refl H0).
Qed.

Section Sound.
  Variables (E : env) (old : list event).
  Variable C : bool -> texpr -> nat -> state -> res nat.
  Hypothesis HC : forall inh e pos st, sound_from E old st -> rsound E old (C inh e pos st).
  Hypothesis HCv : forall inh e pos st ok,
    verdict (C inh e pos st) = Some ok -> exists fuel, verdict (tcheck E fuel inh e pos st) = Some ok.

  Lemma arep_c_sound n : forall inh e pos st,
    sound_from E old st -> rsound E old (arep_c E C n inh e pos st).
  Proof.
    induction n as [|n IH]; intros inh e pos st H0; [exact I|].
    apply rsound_bind; [|intros; apply IH; assumption|auto].
    apply ron_sound; [intros; apply notrack_sound; assumption|exact H0].
  Qed.

  Variable lf : nat.

  Lemma skip_c_sound pos st : sound_from E old st -> rsound E old (skip_c E C lf pos st).
  Proof. intros H0. unfold skip_c. destruct (e_skip E); [exact H0|apply arep_c_sound, H0]. Qed.

  Lemma pre_skip_c_sound b pos st : sound_from E old st -> rsound E old (pre_skip_c E C lf b pos st).
  Proof. intros H0. destruct b; [apply skip_c_sound, H0|exact H0]. Qed.

  Lemma seq_c_sound b inh : forall es first pos st,
    sound_from E old st -> rsound E old (seq_c E C lf b inh es first pos st).
  Proof.
    induction es as [|e es IH]; intros first pos st H0; [exact H0|].
    apply rsound_bind; [apply pre_skip_c_sound, H0| |auto]. intros p1 s1 H1.
    apply rsound_bind; [apply HC, H1|intros; apply IH; assumption|auto].
  Qed.

  Lemma choice_c_sound inh : forall es pos st,
    sound_from E old st -> rsound E old (choice_c E C inh es pos st).
  Proof.
    induction es as [|e es IH]; intros pos st H0; [exact H0|].
    apply rsound_bind; [apply ron_sound; [apply HC|exact H0]|auto|intros; apply IH; assumption].
  Qed.

  Lemma unit_c_sound b inh e i pos st :
    sound_from E old st -> rsound E old (unit_c E C lf b inh e i pos st).
  Proof.
    intros H0. apply rsound_bind; [apply pre_skip_c_sound, H0|intros; apply HC; assumption|auto].
  Qed.

  Lemma rep_c_sound b inh mn mx e : forall n i pos st,
    sound_from E old st -> rsound E old (rep_c E C lf n b inh mn mx e i pos st).
  Proof.
    induction n as [|n IH]; intros i pos st H0; cbn [rep_c];
      (destruct (below i mx); [|destruct (_ && _); exact H0]).
    - exact I.
    - apply rsound_bind; [apply ron_sound; [apply unit_c_sound|exact H0]|intros; apply IH; assumption|].
      intros s Hs. destruct (i <? mn)%nat; exact Hs.
  Qed.

  Lemma arr_c_sound inh e : forall n pos st,
    sound_from E old st -> rsound E old (arr_c C n inh e pos st).
  Proof.
    induction n as [|n IH]; intros pos st H0; [exact H0|].
    apply rsound_bind; [apply HC, H0|intros; apply IH; assumption|auto].
  Qed.

  Lemma newline_c_sound : forall alts pos st,
    sound_from E old st -> rsound E old (newline_c E alts pos st).
  Proof.
    induction alts as [|[bs k] alts IH]; intros pos st H0; [exact H0|].
    apply lift_sound. intros [p'|]; [exact H0|apply IH, H0].
  Qed.

  Lemma exit_sound r inh pos st :
    sound_from E old st ->
    rsound E old (match C inh (r_body (e_rules E r)) pos (ev (EEnter r pos) st) with
                  | Ok pos' st' => Ok pos' (ev (EExit r pos true) st')
                  | Fail st' => Fail (ev (EExit r pos false) st')
                  | Panic => Panic
                  | Fuel => Fuel
                  end).
  Proof.
    intros H0.
    pose proof (HC inh (r_body (e_rules E r)) pos _ (sound_from_ev E old (EEnter r pos) st I H0)) as He.
    pose proof (HCv inh (r_body (e_rules E r)) pos (ev (EEnter r pos) st)) as Hv.
    destruct (C inh (r_body (e_rules E r)) pos (ev (EEnter r pos) st)); try exact I;
      (apply sound_from_ev; [|exact He]); destruct (Hv _ eq_refl) as [fuel Hf]; exists fuel, inh, st; exact Hf.
  Qed.

  Lemma step_c_sound inh e pos st : sound_from E old st -> rsound E old (step_c E C lf inh e pos st).
  Proof.
    intros H0.
    assert (Hpol : forall e b, rsound E old (C inh e pos (with_stk (s_snapshot (stk st)) (ev (EPol b) st)))).
    { intros e' b. apply HC, sound_from_stk, sound_from_ev; [exact I|exact H0]. }
    assert (Hend : forall s, sound_from E old s -> forall s', sound_from E old (ev EPolEnd (with_stk s' s))).
    { intros s Hs s'. apply sound_from_ev; [exact I|]. apply sound_from_stk, Hs. }
    pose proof (sound_from_ev E old (EEmptyStack pos) st I H0) as Hempty.
    destruct e; cbn [step_c].
    - apply leaf_check_sound, H0.
    - apply leaf_check_sound, H0.
    - apply lift_sound. intros [[q c]|]; exact H0.
    - apply lift_sound. intros [[q c]|]; exact H0.
    - destruct (i_at_start _ pos); exact H0.
    - destruct (i_at_end _ pos); exact H0.
    - apply newline_c_sound, H0.
    - apply lift_sound. intros [[q c]|]; exact H0.
    - destruct (i_skip_until _ _ _ pos). exact H0.
    - apply leaf_check_sound, H0.
    - apply seq_c_sound, H0.
    - apply choice_c_sound, H0.
    - apply rsound_bind; [apply ron_sound; [apply HC|exact H0]|auto|auto].
    - apply rep_c_sound, H0.
    - apply arep_c_sound, H0.
    - apply rsound_bind; [apply Hpol| |]; intros; apply lift_sound; intros; apply Hend; assumption.
    - apply rsound_bind; [apply Hpol| |]; intros; apply lift_sound; intros; apply Hend; assumption.
    - apply rsound_bind; [apply HC, H0| |auto]. intros p s Hs. apply lift_sound. intros sp. apply sound_from_stk, Hs.
    - destruct (s_peek (stk st)); [|exact Hempty]. apply lift_sound. intros txt. apply leaf_check_sound, H0.
    - destruct (s_pop (stk st)) as [[sp|] s']; [|exact Hempty].
      apply lift_sound. intros txt. apply leaf_check_sound, sound_from_stk, H0.
    - destruct (s_pop (stk st)) as [[sp|] s']; [apply sound_from_stk, H0|exact Hempty].
    - apply lift_sound. intros l. apply lift_sound. intros [p|]; [|exact H0]. apply lift_sound. intros _. exact H0.
    - apply lift_sound. intros l. apply lift_sound. intros [p|]; [|exact H0].
      apply lift_sound. intros _. apply sound_from_stk, H0.
    - destruct (stack_slice (stk st) a b); [|apply sound_from_ev; [exact I|exact H0]].
      apply lift_sound. intros l. apply lift_sound. intros [p|]; [|exact H0]. apply lift_sound. intros _. exact H0.
    - apply arr_c_sound, H0.
    - apply rsound_bind; [apply HC, H0|intros; apply HC; assumption|auto].
    - exact H0.
    - exact H0.
    - destruct (r_emis (e_rules E r)); [apply exit_sound, H0|apply HC, H0|apply exit_sound, H0].
  Qed.
End Sound.

Theorem tcheck_sound E old : forall fuel inh e pos st,
  sound_from E old st -> rsound E old (tcheck E fuel inh e pos st).
Proof.
  induction fuel as [|n IH]; intros inh e pos st H0; [exact I|].
  apply step_c_sound; [exact IH| |exact H0]. intros inh1 e1 pos1 st1 ok H. exists n. exact H.
Qed.

Theorem trace_sound_check E fuel inh e pos st st' :
  final (tcheck E fuel inh e pos st) = Some st' ->
  exists new, tr st' = new ++ tr st /\ Forall (justified E) new.
Proof. apply rsound_final, tcheck_sound, sound_from_refl. Qed.

Lemma final_not_panic {A} (r : res A) st : final r = Some st -> r <> Panic.
Proof. intros H ->. discriminate. Qed.

Lemma check_final_parse E fuel inh e pos st st' :
  final (tparse E fuel inh e pos st) = Some st' -> final (tcheck E fuel inh e pos st) = Some st'.
Proof.
  intros H. rewrite check_is_parse; [|exact (final_not_panic _ _ H)].
  destruct (tparse E fuel inh e pos st) as [[] ?|?| |]; exact H.
Qed.

Theorem trace_sound_parse E fuel inh e pos st st' :
  final (tparse E fuel inh e pos st) = Some st' ->
  exists new, tr st' = new ++ tr st /\ Forall (justified E) new.
Proof. intros H. exact (trace_sound_check E fuel inh e pos st st' (check_final_parse E fuel inh e pos st st' H)). Qed.

Lemma final_cases {A} (r : res A) st' : (exists a, r = Ok a st') \/ r = Fail st' -> final r = Some st'.
Proof. intros [[a ->]| ->]; reflexivity. Qed.

Theorem trace_extends_parse E fuel inh e pos st st' :
  (exists a, tparse E fuel inh e pos st = Ok a st') \/ tparse E fuel inh e pos st = Fail st' ->
  exists new, tr st' = new ++ tr st.
Proof.
  intros H. destruct (trace_sound_parse E fuel inh e pos st st' (final_cases _ _ H)) as (new & Hn & _).
  exists new. exact Hn.
Qed.

Theorem trace_extends_check E fuel inh e pos st st' :
  (exists a, tcheck E fuel inh e pos st = Ok a st') \/ tcheck E fuel inh e pos st = Fail st' ->
  exists new, tr st' = new ++ tr st.
Proof.
  intros H. destruct (trace_sound_check E fuel inh e pos st st' (final_cases _ _ H)) as (new & Hn & _).
  exists new. exact Hn.
Qed.

Lemma try_check_partial_rsound E fuel r : rsound E [] (try_check_partial E fuel r).
Proof. apply tcheck_sound. exact (sound_from_refl E st0). Qed.

Theorem try_check_partial_sound E fuel r st' :
  final (try_check_partial E fuel r) = Some st' -> Forall (justified E) (tr st').
Proof. intros H. exact (sound_from_nil E st' (rsound_final E [] _ st' (try_check_partial_rsound E fuel r) H)). Qed.

Theorem try_parse_partial_sound E fuel r st' :
  final (try_parse_partial E fuel r) = Some st' -> Forall (justified E) (tr st').
Proof. intros H. apply (try_check_partial_sound E fuel r), check_final_parse, H. Qed.

(* the exit event of the EOI attempt of the full entry points: justified by the end-of-input test *)
Definition justified_eoi (E : env) (e : event) : Prop :=
  match e with
  | EExit r p ok => r = e_eoi E /\ i_at_end (e_inp E) p = ok
  | _ => True
  end.

Definition justified_top (E : env) (e : event) : Prop := justified E e \/ justified_eoi E e.

Lemma justified_is_top E l : Forall (justified E) l -> Forall (justified_top E) l.
Proof. apply Forall_impl. intros e He. left. exact He. Qed.

Lemma eoi_attempt_tr E pos st st' :
  final (eoi_attempt E pos st) = Some st' ->
  tr st' = EExit (e_eoi E) pos (i_at_end (e_inp E) pos) :: EEnter (e_eoi E) pos :: tr st.
Proof. unfold eoi_attempt. destruct (i_at_end (e_inp E) pos); intros [= <-]; reflexivity. Qed.

Lemma try_check_trace E fuel r st' :
  final (try_check E fuel r) = Some st' ->
  Forall (justified E) (tr st') \/
  exists pos st, Forall (justified E) (tr st) /\ try_check E fuel r = eoi_attempt E pos st.
Proof.
  unfold try_check. pose proof (try_check_partial_rsound E fuel r) as Hp.
  destruct (try_check_partial E fuel r) as [pos st|st| |]; try discriminate.
  - destruct (no_ignore E r).
    + right. exists pos, st. split; [apply sound_from_nil, Hp|reflexivity].
    + pose proof (skip_c_sound E [] (tcheck E fuel) fuel pos st Hp) as Hs. fold (top_skip_c E fuel pos st) in Hs.
      destruct (top_skip_c E fuel pos st) as [pos' st1|st1| |]; try discriminate.
      * right. exists pos', st1. split; [apply sound_from_nil, Hs|reflexivity].
      * intros [= <-]. left. apply sound_from_nil, Hs.
  - intros [= <-]. left. apply sound_from_nil, Hp.
Qed.

Theorem try_check_sound E fuel r st' :
  final (try_check E fuel r) = Some st' -> Forall (justified_top E) (tr st').
Proof.
  intros Hf. destruct (try_check_trace E fuel r st' Hf) as [H|(pos & st & H & Heq)].
  - apply justified_is_top, H.
  - rewrite Heq in Hf. rewrite (eoi_attempt_tr E pos st st' Hf).
    constructor; [right; split; reflexivity|]. constructor; [left; exact I|apply justified_is_top, H].
Qed.

Theorem try_parse_sound E fuel r st' :
  final (try_parse E fuel r) = Some st' -> Forall (justified_top E) (tr st').
Proof.
  intros H. apply (try_check_sound E fuel r). rewrite try_check_is_parse; [|exact (final_not_panic _ _ H)].
  destruct (try_parse E fuel r); exact H.
Qed.

(* "rule [r] tried at [p] has outcome [ok]": the body of the rule, run through the check path at [p] in a
   state just after its enter event, gives that verdict; or [r] is the EOI pseudo-rule of the full-parse
   wrappers and [ok] is the end-of-input test at [p] *)
Definition rule_outcome (E : env) (r : N) (p : nat) (ok : bool) : Prop :=
  (r = e_eoi E /\ i_at_end (e_inp E) p = ok) \/
  (exists fuel inh st1,
     verdict (tcheck E fuel inh (r_body (e_rules E r)) p (ev (EEnter r p) st1)) = Some ok).

Theorem report_truthful_check E fuel r st' :
  try_check E fuel r = Fail st' ->
  forall en, In en (t_attempts (run_tracker (i_start (e_inp E)) (tr st'))) ->
    (forall r', In r' (te_pos en) ->
       rule_outcome E r' (t_position (run_tracker (i_start (e_inp E)) (tr st'))) false) /\
    (forall r', In r' (te_neg en) ->
       rule_outcome E r' (t_position (run_tracker (i_start (e_inp E)) (tr st'))) true).
Proof.
  intros Hf en Hen.
  assert (Hj : Forall (justified_top E) (tr st')) by (apply (try_check_sound E fuel r); rewrite Hf; reflexivity).
  rewrite Forall_forall in Hj.
  destruct (proj1 (Forall_forall _ _) (tracker_truth _ (tr st')) en Hen) as (Hpos & Hneg & _).
  split; intros r' Hr; apply or_comm, (Hj (EExit r' _ _)); [apply Hpos|apply Hneg]; exact Hr.
Qed.

Lemma try_check_fail_parse E fuel r st' : try_parse E fuel r = Fail st' -> try_check E fuel r = Fail st'.
Proof. intros H. rewrite try_check_is_parse; rewrite H; [reflexivity|discriminate]. Qed.

Theorem report_truthful E fuel r st' :
  try_parse E fuel r = Fail st' ->
  forall en, In en (t_attempts (run_tracker (i_start (e_inp E)) (tr st'))) ->
    (forall r', In r' (te_pos en) ->
       (r' = e_eoi E /\ i_at_end (e_inp E) (t_position (run_tracker (i_start (e_inp E)) (tr st'))) = false) \/
       (exists fuel' inh' st1,
          verdict (tcheck E fuel' inh' (r_body (e_rules E r'))
                     (t_position (run_tracker (i_start (e_inp E)) (tr st')))
                     (ev (EEnter r' (t_position (run_tracker (i_start (e_inp E)) (tr st')))) st1)) = Some false)) /\
    (forall r', In r' (te_neg en) ->
       (r' = e_eoi E /\ i_at_end (e_inp E) (t_position (run_tracker (i_start (e_inp E)) (tr st'))) = true) \/
       (exists fuel' inh' st1,
          verdict (tcheck E fuel' inh' (r_body (e_rules E r'))
                     (t_position (run_tracker (i_start (e_inp E)) (tr st')))
                     (ev (EEnter r' (t_position (run_tracker (i_start (e_inp E)) (tr st')))) st1)) = Some true)).
Proof. intros Hf. exact (report_truthful_check E fuel r st' (try_check_fail_parse E fuel r st' Hf)). Qed.

(* sharper for a rejected full parse: the only exit event not backed by a rule body is the failed
   EOI attempt, so every rule listed as unexpected is backed by a matching rule body *)
Lemma try_check_fail_sound E fuel r st' :
  try_check E fuel r = Fail st' ->
  forall r' p, In (EExit r' p true) (tr st') -> justified E (EExit r' p true).
Proof.
  intros Hf r' p Hin.
  destruct (try_check_trace E fuel r st') as [H|(pos & st & H & Heq)]; [rewrite Hf; reflexivity| |].
  - exact (proj1 (Forall_forall _ _) H _ Hin).
  - rewrite Heq in Hf. rewrite (eoi_attempt_tr E pos st st') in Hin by (rewrite Hf; reflexivity).
    unfold eoi_attempt in Hf. destruct (i_at_end (e_inp E) pos); [discriminate|].
    destruct Hin as [[=]|[[=]|Hin]]. exact (proj1 (Forall_forall _ _) H _ Hin).
Qed.

Theorem report_unexpected_matches_check E fuel r st' :
  try_check E fuel r = Fail st' ->
  forall en, In en (t_attempts (run_tracker (i_start (e_inp E)) (tr st'))) ->
  forall r', In r' (te_neg en) ->
    exists fuel' inh' st1,
      verdict (tcheck E fuel' inh' (r_body (e_rules E r'))
                 (t_position (run_tracker (i_start (e_inp E)) (tr st')))
                 (ev (EEnter r' (t_position (run_tracker (i_start (e_inp E)) (tr st')))) st1)) = Some true.
Proof.
  intros Hf en Hen r' Hr.
  destruct (proj1 (Forall_forall _ _) (tracker_truth _ (tr st')) en Hen) as (_ & Hneg & _).
  exact (try_check_fail_sound E fuel r st' Hf r' _ (Hneg r' Hr)).
Qed.

Theorem report_unexpected_matches E fuel r st' :
  try_parse E fuel r = Fail st' ->
  forall en, In en (t_attempts (run_tracker (i_start (e_inp E)) (tr st'))) ->
  forall r', In r' (te_neg en) ->
    exists fuel' inh' st1,
      verdict (tcheck E fuel' inh' (r_body (e_rules E r'))
                 (t_position (run_tracker (i_start (e_inp E)) (tr st')))
                 (ev (EEnter r' (t_position (run_tracker (i_start (e_inp E)) (tr st')))) st1)) = Some true.
Proof. intros Hf. exact (report_unexpected_matches_check E fuel r st' (try_check_fail_parse E fuel r st' Hf)). Qed.

(* [justified] is not vacuous: no exit event can claim that a rule with body AlwaysFail matched *)
Lemma justified_discriminates E r p : r_body (e_rules E r) = TFail -> ~ justified E (EExit r p true).
Proof.
  intros Hb (fuel & inh & st1 & H). rewrite Hb in H.
  destruct fuel as [|n]; cbn [tcheck step_c verdict] in H; discriminate.
Qed.
