(* C10: facts about the error tracker as a fold over the event trace, and where a rejected full parse reports its error. *)
From Coq Require Import List NArith Arith Bool Lia.
From PT Require Import Model.Base Model.Sem Model.Tracker.
Import ListNotations.

Lemma prepare_cases t pos go t1 :
  prepare t pos = (go, t1) ->
  t_position t1 = Nat.max (t_position t) pos /\
  (go = true -> t_position t1 = pos) /\
  (t1 = t \/ t_attempts t1 = []).
Proof.
  unfold prepare. destruct (Nat.ltb_spec pos (t_position t)); [|destruct (Nat.eqb_spec pos (t_position t))];
    intros [= <- <-]; cbn [t_position t_attempts]; (split; [lia|]); (split; [intros; lia || discriminate | auto]).
Qed.

Lemma record_position t r pos ok : t_position (record t r pos ok) = Nat.max (t_position t) pos.
Proof.
  unfold record. destruct (prepare t pos) as [go t1] eqn:Hp. apply prepare_cases in Hp as [Hp _].
  destruct (go && negb (Bool.eqb ok (t_positive t1))); exact Hp.
Qed.

Lemma add_special_position t pos s : t_position (add_special t pos s) = Nat.max (t_position t) pos.
Proof.
  unfold add_special. destruct (prepare t pos) as [go t1] eqn:Hp. apply prepare_cases in Hp as [Hp _].
  destruct go; exact Hp.
Qed.

Lemma tstep_position_mono t e : t_position t <= t_position (tstep t e).
Proof.
  destruct e; cbn [tstep t_position]; rewrite ?add_special_position; try lia.
  - destruct (t_stack t) as [|[[r' p'] [|]] rest]; rewrite ?record_position; cbn [t_position]; lia.
  - destruct (t_saved t); apply Nat.le_refl.
Qed.

Lemma fold_position_mono l : forall t, t_position t <= t_position (fold_left tstep l t).
Proof.
  induction l as [|e l IH]; intros t; [apply Nat.le_refl|].
  exact (Nat.le_trans _ _ _ (tstep_position_mono t e) (IH (tstep t e))).
Qed.

Theorem position_ge_start start trace : start <= t_position (run_tracker start trace).
Proof. unfold run_tracker. apply (fold_position_mono (rev trace) (tracker_new start)). Qed.

(* [seen] = the events processed so far.  Every rule listed as expected (positives) has an exit event with
   verdict false at exactly the reported position, every rule listed as unexpected (negatives) an exit event
   with verdict true there, every special error its event there. *)
Definition entry_ok (seen : list event) (p : nat) (e : tentry) : Prop :=
  (forall r, In r (te_pos e) -> In (EExit r p false) seen) /\
  (forall r, In r (te_neg e) -> In (EExit r p true) seen) /\
  (forall s, In s (te_spec e) ->
     match s with
     | SpEmptyStack => In (EEmptyStack p) seen
     | SpOutOfBound a b => In (EOutOfBound p a b) seen
     end).

Definition truthful (seen : list event) (t : tracker) : Prop :=
  Forall (entry_ok seen (t_position t)) (t_attempts t).

Lemma entry_ok_more seen seen' p e : incl seen seen' -> entry_ok seen p e -> entry_ok seen' p e.
Proof.
  intros Hi (H1 & H2 & H3). repeat split; intros x Hx.
  - apply Hi, H1, Hx.
  - apply Hi, H2, Hx.
  - specialize (H3 x Hx). destruct x; apply Hi, H3.
Qed.

Lemma push_dedup_in r v x : In x (push_dedup r v) -> In x v \/ x = r.
Proof.
  unfold push_dedup. destruct (rev v) as [|l rest].
  - intros [H|[]]. right. congruence.
  - destruct (l =? r)%N; [tauto|]. intros H. apply in_app_or in H. destruct H as [H|[H|[]]]; [tauto|right; congruence].
Qed.

Lemma empty_entry_ok seen p k : entry_ok seen p (mk_tentry k [] [] []).
Proof. repeat split; intros y []. Qed.

Lemma entry_ok_exit seen p e r (b : bool) :
  In (EExit r p (negb b)) seen -> entry_ok seen p e ->
  entry_ok seen p (if b then mk_tentry (te_key e) (push_dedup r (te_pos e)) (te_neg e) (te_spec e)
                   else mk_tentry (te_key e) (te_pos e) (push_dedup r (te_neg e)) (te_spec e)).
Proof.
  intros Hin (H1 & H2 & H3). destruct b; (split; [|split]); try assumption;
    intros x Hx; apply push_dedup_in in Hx as [Hx| ->]; try exact Hin; [apply H1, Hx|apply H2, Hx].
Qed.

Lemma entry_ok_spec seen p e s :
  match s with
  | SpEmptyStack => In (EEmptyStack p) seen
  | SpOutOfBound a b => In (EOutOfBound p a b) seen
  end -> entry_ok seen p e ->
  entry_ok seen p (mk_tentry (te_key e) (te_pos e) (te_neg e) (te_spec e ++ [s])).
Proof.
  intros Hin (H1 & H2 & H3). split; [|split]; [assumption..|].
  intros x Hx. apply in_app_or in Hx as [Hx|[<-|[]]]; [apply H3, Hx | exact Hin].
Qed.

Lemma upd_entry_forall (Pr : tentry -> Prop) k f l :
  Forall Pr l -> (forall e, Pr e -> Pr (f e)) -> Pr (mk_tentry k [] [] []) -> Forall Pr (upd_entry k f l).
Proof.
  intros Hl Hf H0. induction Hl as [|e l He Hl IH]; cbn [upd_entry].
  - constructor; [apply Hf, H0|constructor].
  - destruct (key_eqb (te_key e) k); constructor; auto.
Qed.

Lemma truthful_upd seen t pos t1 k f st :
  truthful seen t -> prepare t pos = (true, t1) ->
  (forall e, entry_ok seen pos e -> entry_ok seen pos (f e)) ->
  truthful seen (mk_tracker (t_position t1) (t_positive t1) (t_saved t1) (upd_entry k f (t_attempts t1)) st).
Proof.
  intros Ht Hp Hf. destruct (prepare_cases t pos true t1 Hp) as (_ & Hpos & Hat).
  unfold truthful in *. cbn [t_position t_attempts]. rewrite <- (Hpos eq_refl) in Hf.
  apply upd_entry_forall; [|exact Hf|apply empty_entry_ok].
  destruct Hat as [-> | ->]; [exact Ht | constructor].
Qed.

Lemma truthful_prepare seen t pos go t1 : truthful seen t -> prepare t pos = (go, t1) -> truthful seen t1.
Proof.
  intros Ht Hp. destruct (prepare_cases _ _ _ _ Hp) as (_ & _ & [-> | Hat]); [exact Ht|].
  unfold truthful. rewrite Hat. constructor.
Qed.

Lemma truthful_record seen t r pos ok :
  truthful seen t -> In (EExit r pos ok) seen -> truthful seen (record t r pos ok).
Proof.
  intros Ht Hin. unfold record. destruct (prepare t pos) as [go t1] eqn:Hp.
  destruct go, (Bool.eqb ok (t_positive t1)) eqn:Heq; cbn [andb negb];
    try exact (truthful_prepare _ _ _ _ _ Ht Hp).
  apply (truthful_upd _ _ _ _ _ _ _ Ht Hp). intros e. apply entry_ok_exit.
  destruct (t_positive t1), ok; try discriminate Heq; exact Hin.
Qed.

Lemma truthful_special seen t pos s :
  truthful seen t ->
  match s with
  | SpEmptyStack => In (EEmptyStack pos) seen
  | SpOutOfBound a b => In (EOutOfBound pos a b) seen
  end ->
  truthful seen (add_special t pos s).
Proof.
  intros Ht Hin. unfold add_special. destruct (prepare t pos) as [[|] t1] eqn:Hp.
  - apply (truthful_upd _ _ _ _ _ _ _ Ht Hp). intros e. apply entry_ok_spec, Hin.
  - exact (truthful_prepare _ _ _ _ _ Ht Hp).
Qed.

Lemma truthful_step seen t e : truthful seen t -> truthful (e :: seen) (tstep t e).
Proof.
  intros Ht.
  assert (Ht' : truthful (e :: seen) t) by exact (Forall_impl _ (fun a => entry_ok_more _ _ _ a (incl_tl e (incl_refl seen))) Ht).
  destruct e; cbn [tstep]; try exact Ht'.
  - destruct (t_stack t) as [|[[r' p'] [|]] rest]; try exact Ht'.
    apply truthful_record; [exact Ht'|left; reflexivity].
  - destruct (t_saved t); exact Ht'.
  - apply truthful_special; [exact Ht'|left; reflexivity].
  - apply truthful_special; [exact Ht'|left; reflexivity].
Qed.

Lemma truthful_fold l : forall seen t, truthful seen t -> truthful (rev l ++ seen) (fold_left tstep l t).
Proof.
  induction l as [|e l IH]; intros seen t Ht; cbn [fold_left rev app]; [exact Ht|].
  rewrite <- app_assoc. cbn [app]. apply IH. apply truthful_step. exact Ht.
Qed.

Theorem tracker_truth start trace :
  Forall (entry_ok trace (t_position (run_tracker start trace))) (t_attempts (run_tracker start trace)).
Proof.
  unfold run_tracker.
  pose proof (truthful_fold (rev trace) [] (tracker_new start)) as H.
  rewrite rev_involutive, app_nil_r in H. apply H. constructor.
Qed.

Theorem eoi_attempt_location start trace eoi pos ok :
  pos <= t_position (run_tracker start (EExit eoi pos ok :: EEnter eoi pos :: trace)).
Proof.
  unfold run_tracker. cbn [rev]. rewrite <- app_assoc. cbn [app].
  rewrite fold_left_app. cbn [fold_left tstep t_stack]. rewrite record_position. apply Nat.le_max_r.
Qed.

Lemma arep_p_never_fails E P n : forall inh e pos st acc st',
  arep_p E P n inh e pos st acc <> Fail st'.
Proof.
  induction n as [|n IH]; intros inh e pos st acc st'; cbn [arep_p]; [discriminate|].
  destruct (ron E (notrack (P inh e pos)) st) as [[p t] s1|s1| |]; try discriminate. apply IH.
Qed.

Lemma top_skip_never_fails E fuel pos st st' : top_skip_p E fuel pos st <> Fail st'.
Proof.
  unfold top_skip_p, skip_p. destruct (e_skip E); [discriminate|apply arep_p_never_fails].
Qed.

Theorem rejected_full_parse_location E fuel r pos t st st'' :
  try_parse_partial E fuel r = Ok (pos, t) st ->
  try_parse E fuel r = Fail st'' ->
  exists pos' st',
    (if no_ignore E r then pos' = pos /\ st' = st
     else exists t', top_skip_p E fuel pos st = Ok (pos', t') st') /\
    i_at_end (e_inp E) pos' = false /\
    st'' = ev (EExit (e_eoi E) pos' false) (ev (EEnter (e_eoi E) pos') st') /\
    pos' <= t_position (run_tracker (i_start (e_inp E)) (tr st'')).
Proof.
  intros Hp. unfold try_parse. rewrite Hp. destruct (no_ignore E r).
  - unfold eoi_attempt. destruct (i_at_end (e_inp E) pos) eqn:He; [discriminate|].
    intros H. inversion H; subst. exists pos, st. repeat split; try assumption.
    cbn [tr ev]. apply eoi_attempt_location.
  - destruct (top_skip_p E fuel pos st) as [[pos' t'] st'|st'| |] eqn:Hs; try discriminate.
    + unfold eoi_attempt. destruct (i_at_end (e_inp E) pos') eqn:He; [discriminate|].
      intros H. inversion H; subst. exists pos', st'. repeat split; try assumption.
      * exists t'. reflexivity.
      * cbn [tr ev]. apply eoi_attempt_location.
    + intros _. exfalso. eapply top_skip_never_fails. exact Hs.
Qed.
