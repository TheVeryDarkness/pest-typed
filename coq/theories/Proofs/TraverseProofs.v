(* C15, traversal half: the loops of Model/Traverse.v against the recursive enumerations, for every token tree.
   Forests (lists of trees) are what the loops hold in their queues, so every fact is proved of forests,
   by [forest_ind], and read off for the one-tree forest. *)
From Coq Require Import List Arith Lia Permutation.
From PT Require Import Model.Tok Model.Traverse Proofs.ListFacts.
Import ListNotations.

Section ForestInd.
  Variable Q : list tok -> Prop.
  Hypothesis Hnil : Q [].
  Hypothesis Hcons : forall r s e cs f, Q cs -> Q f -> Q (Tok r s e cs :: f).

  Fixpoint forest_ind_tok (t : tok) : forall f, Q f -> Q (t :: f) :=
    match t with
    | Tok r s e cs => fun f Hf =>
        Hcons r s e cs f
          ((fix go (l : list tok) : Q l :=
              match l with
              | [] => Hnil
              | c :: l' => forest_ind_tok c l' (go l')
              end) cs) Hf
    end.

  Lemma forest_ind f : Q f.
  Proof. induction f as [|t f IH]; [exact Hnil | exact (forest_ind_tok t f IH)]. Qed.
End ForestInd.

Definition oapp {A : Type} (l : list A) (o : option (list A)) : option (list A) :=
  match o with
  | Some l' => Some (l ++ l')
  | None => None
  end.

Lemma oapp_nil {A : Type} (o : option (list A)) : oapp [] o = o.
Proof. destruct o; reflexivity. Qed.

Lemma ocons_oapp {A : Type} (x : A) l (o : option (list A)) : ocons x (oapp l o) = oapp (x :: l) o.
Proof. destruct o; reflexivity. Qed.

Lemma oapp_app {A : Type} (l1 l2 : list A) o : oapp l1 (oapp l2 o) = oapp (l1 ++ l2) o.
Proof. destruct o; cbn [oapp]; [rewrite app_assoc|]; reflexivity. Qed.

Lemma as_token_id t : as_token t = t.
Proof. destruct t; reflexivity. Qed.

Lemma children_of_spec r s e cs : children_of (Tok r s e cs) = cs.
Proof. reflexivity. Qed.

Lemma fsize_cons t f : fsize (t :: f) = size t + fsize f.
Proof. reflexivity. Qed.

Lemma fsize_app f g : fsize (f ++ g) = fsize f + fsize g.
Proof. unfold fsize. rewrite map_app, list_sum_app. reflexivity. Qed.

Lemma size_Tok r s e cs : size (Tok r s e cs) = S (fsize cs).
Proof. reflexivity. Qed.

Lemma height_Tok r s e cs : height (Tok r s e cs) = S (fheight cs).
Proof. reflexivity. Qed.

Lemma fheight_cons t f : fheight (t :: f) = Nat.max (height t) (fheight f).
Proof. reflexivity. Qed.

Lemma fheight_app f g : fheight (f ++ g) = Nat.max (fheight f) (fheight g).
Proof. unfold fheight. rewrite map_app, list_max_app. reflexivity. Qed.

Lemma size_pos t : 1 <= size t.
Proof. destruct t. rewrite size_Tok. lia. Qed.

Lemma fheight_0 f : fheight f = 0 -> f = [].
Proof. destruct f as [|[r s e cs] f]; [reflexivity|]. rewrite fheight_cons, height_Tok. lia. Qed.

Lemma fsize_children f : fsize f = length f + fsize (flat_map tok_children f).
Proof.
  induction f as [|[r s e cs] f IH]; [reflexivity|].
  cbn [flat_map tok_children length]. rewrite fsize_cons, fsize_app, size_Tok. lia.
Qed.

Lemma fheight_children f : fheight (flat_map tok_children f) = pred (fheight f).
Proof.
  induction f as [|[r s e cs] f IH]; [reflexivity|].
  cbn [flat_map tok_children]. rewrite fheight_cons, fheight_app, height_Tok, IH. lia.
Qed.

Lemma fheight_le_fsize f : fheight f <= fsize f.
Proof.
  induction f as [|r s e cs f IHcs IHf] using forest_ind; [apply Nat.le_refl|].
  rewrite fheight_cons, fsize_cons, height_Tok, size_Tok. lia.
Qed.

Definition pre_forest_ok (f : list tok) : Prop :=
  forall rest fuel,
    pre_order_loop (2 * fsize f + 1 + fuel) (f :: rest) =
    oapp (flat_map (fun c => preorder c (length rest)) f) (pre_order_loop fuel rest).

(* the loop emits the first tree's root, then works off its children one level up, then the other trees *)
Lemma pre_forest_all f : pre_forest_ok f.
Proof.
  induction f as [|r s e cs f IHcs IHf] using forest_ind; intros rest fuel.
  - cbn [pre_order_loop flat_map fsize map list_sum Nat.mul Nat.add]. rewrite oapp_nil. reflexivity.
  - rewrite fsize_cons, size_Tok.
    replace (2 * (S (fsize cs) + fsize f) + 1 + fuel) with (S (2 * fsize cs + 1 + (2 * fsize f + 1 + fuel))) by lia.
    cbn [pre_order_loop tok_children]. rewrite (IHcs (f :: rest)), (IHf rest fuel), oapp_app, ocons_oapp.
    cbn [length Nat.sub flat_map preorder app]. rewrite Nat.sub_0_r. reflexivity.
Qed.

Lemma pre_tree t fuel : pre_order (2 * size t + 1 + fuel) t = oapp (preorder t 0) (pre_order_loop fuel []).
Proof.
  unfold pre_order. rewrite as_token_id, <- (app_nil_r (preorder t 0)), <- (Nat.add_0_r (size t)).
  exact (pre_forest_all [t] [] fuel).
Qed.

Theorem pre_order_correct t fuel :
  fuel_for t <= fuel -> pre_order fuel t = Some (preorder t 0).
Proof.
  unfold fuel_for. intros Hf.
  replace fuel with (2 * size t + 1 + S (fuel - 2 * size t - 2)) by lia.
  rewrite pre_tree. cbn [pre_order_loop oapp]. rewrite app_nil_r. reflexivity.
Qed.

Theorem pre_order_fuel_tight t : pre_order (fuel_for t - 1) t = None.
Proof.
  unfold fuel_for. replace (2 * size t + 2 - 1) with (2 * size t + 1 + 0) by lia.
  rewrite pre_tree. reflexivity.
Qed.

Lemma preorder_fst_forest f : forall d, map fst (flat_map (fun c => preorder c d) f) = flat_map all_tokens f.
Proof.
  induction f as [|r s e cs f IHcs IHf] using forest_ind; intros d; [reflexivity|].
  cbn [flat_map preorder all_tokens app map fst]. rewrite map_app, IHcs, IHf. reflexivity.
Qed.

Lemma preorder_fst t d : map fst (preorder t d) = all_tokens t.
Proof. rewrite <- (app_nil_r (preorder t d)), <- (app_nil_r (all_tokens t)). apply (preorder_fst_forest [t]). Qed.

Lemma all_tokens_length_forest f : length (flat_map all_tokens f) = fsize f.
Proof.
  induction f as [|r s e cs f IHcs IHf] using forest_ind; [reflexivity|].
  cbn [flat_map all_tokens app length]. rewrite app_length, IHcs, IHf. reflexivity.
Qed.

Lemma all_tokens_length t : length (all_tokens t) = size t.
Proof. rewrite <- (app_nil_r (all_tokens t)), <- (Nat.add_0_r (size t)). apply (all_tokens_length_forest [t]). Qed.

Lemma preorder_length t d : length (preorder t d) = size t.
Proof. rewrite <- (map_length fst), preorder_fst. apply all_tokens_length. Qed.

Lemma preorder_depth_ge f : forall d p, In p (flat_map (fun c => preorder c d) f) -> d <= snd p.
Proof.
  induction f as [|r s e cs f IHcs IHf] using forest_ind; intros d p Hin; [destruct Hin|].
  cbn [flat_map preorder app] in Hin. destruct Hin as [<-|Hin]; [apply Nat.le_refl|].
  apply in_app_or in Hin as [Hin|Hin]; [apply IHcs in Hin; lia | exact (IHf d p Hin)].
Qed.

Lemma level_drain q : forall next fuel,
  level_order_loop (length q + fuel) q next =
  oapp (with_remaining q) (level_order_loop fuel [] (next ++ flat_map tok_children q)).
Proof.
  induction q as [|p q IH]; intros next fuel.
  - cbn [length with_remaining flat_map Nat.add]. rewrite app_nil_r, oapp_nil. reflexivity.
  - cbn [length Nat.add level_order_loop]. rewrite IH.
    cbn [flat_map with_remaining]. rewrite <- app_assoc, ocons_oapp. reflexivity.
Qed.

Lemma flevel_at_0 f : flevel_at 0 f = f.
Proof.
  unfold flevel_at. induction f as [|t f IH]; [reflexivity|].
  cbn [flat_map]. rewrite IH. reflexivity.
Qed.

Lemma flevel_at_S k f : flevel_at (S k) f = flevel_at k (flat_map tok_children f).
Proof.
  unfold flevel_at. induction f as [|t f IH]; [reflexivity|].
  cbn [flat_map]. rewrite flat_map_app, IH. reflexivity.
Qed.

Definition flevels (f : list tok) (h : nat) : list (list tok) := map (fun k => flevel_at k f) (seq 0 h).

Lemma flevels_S f h : flevels f (S h) = f :: flevels (flat_map tok_children f) h.
Proof.
  unfold flevels. cbn [seq map]. rewrite flevel_at_0, <- seq_shift, map_map. f_equal.
  apply map_ext. intros k. apply flevel_at_S.
Qed.

Lemma flevels_root t : flevels [t] (height t) = levels t.
Proof. apply map_ext. intros k. apply app_nil_r. Qed.

Lemma level_loop_forest h : forall f fuel,
  fheight f = h -> fsize f + h + 1 <= fuel ->
  level_order_loop fuel f [] = Some (concat (map with_remaining (flevels f h))).
Proof.
  induction h as [|h IH]; intros f fuel Hh Hfuel.
  - apply fheight_0 in Hh. subst f.
    destruct fuel as [|fuel]; [lia|]. reflexivity.
  - pose proof (fsize_children f) as Hsz.
    pose proof (fheight_children f) as Hhc. rewrite Hh in Hhc. cbn [pred] in Hhc.
    replace fuel with (length f + (fuel - length f)) by lia.
    rewrite level_drain, flevels_S. cbn [app map concat].
    destruct (fuel - length f) as [|fuel'] eqn:Hfl; [lia|].
    destruct (flat_map tok_children f) as [|x f'] eqn:Hf'.
    + cbn in Hhc. subst h. cbn [level_order_loop oapp]. reflexivity.
    + cbn [level_order_loop]. rewrite (IH (x :: f') fuel' Hhc) by lia. reflexivity.
Qed.

Lemma with_remaining_fst l : map fst (with_remaining l) = l.
Proof. induction l as [|p l IH]; [reflexivity|]. cbn [with_remaining map fst]. rewrite IH. reflexivity. Qed.

Lemma with_remaining_snd l : map snd (with_remaining l) = rev (seq 0 (length l)).
Proof.
  induction l as [|p l IH]; [reflexivity|].
  cbn [with_remaining map snd length]. rewrite IH, seq_S. cbn [Nat.add].
  rewrite rev_app_distr. reflexivity.
Qed.

Theorem level_order_correct_tight t fuel :
  size t + height t + 1 <= fuel ->
  level_order fuel t = Some (concat (map with_remaining (levels t))).
Proof.
  intros Hf. unfold level_order. rewrite as_token_id, <- flevels_root.
  apply level_loop_forest; [apply Nat.max_0_r | unfold fsize; cbn [map list_sum fold_right]; lia].
Qed.

Theorem level_order_correct t fuel :
  fuel_for t <= fuel ->
  level_order fuel t = Some (concat (map with_remaining (levels t))).
Proof.
  intros Hf. apply level_order_correct_tight.
  pose proof (fheight_le_fsize [t]) as H. unfold fheight, fsize in H. cbn [map list_max list_sum fold_right] in H.
  unfold fuel_for in Hf. lia.
Qed.

Lemma level_order_tokens t :
  map fst (concat (map with_remaining (levels t))) = concat (levels t).
Proof.
  rewrite concat_map, map_map. f_equal.
  rewrite <- (map_id (levels t)) at 2. apply map_ext. intros l. apply with_remaining_fst.
Qed.

Lemma all_tokens_forest_split f :
  Permutation (flat_map all_tokens f) (f ++ flat_map all_tokens (flat_map tok_children f)).
Proof.
  induction f as [|[r s e cs] f IH]; [constructor|].
  cbn [flat_map all_tokens tok_children app]. constructor.
  rewrite flat_map_app, IH, !app_assoc. apply Permutation_app_tail, Permutation_app_comm.
Qed.

Lemma levels_forest_perm h : forall f,
  fheight f = h -> Permutation (concat (flevels f h)) (flat_map all_tokens f).
Proof.
  induction h as [|h IH]; intros f Hh.
  - apply fheight_0 in Hh. subst f. constructor.
  - rewrite flevels_S. cbn [concat].
    rewrite (IH (flat_map tok_children f)) by (rewrite fheight_children, Hh; reflexivity).
    symmetry. apply all_tokens_forest_split.
Qed.

Theorem levels_permutation t : Permutation (concat (levels t)) (all_tokens t).
Proof.
  rewrite <- flevels_root, <- (app_nil_r (all_tokens t)).
  apply (levels_forest_perm (height t) [t]), Nat.max_0_r.
Qed.

Lemma flevel_at_filter f : forall k d,
  flevel_at k f = map fst (filter (fun p => snd p =? d + k) (flat_map (fun c => preorder c d) f)).
Proof.
  unfold flevel_at. induction f as [|r s e cs f IHcs IHf] using forest_ind; intros k d; [reflexivity|].
  cbn [flat_map preorder]. rewrite filter_app, map_app, <- (IHf k d). f_equal.
  cbn [filter snd]. destruct k as [|k].
  - rewrite Nat.add_0_r, Nat.eqb_refl, filter_none; [reflexivity|].
    intros p Hp. apply preorder_depth_ge in Hp. apply Nat.eqb_neq. lia.
  - replace (d =? d + S k) with false by (symmetry; apply Nat.eqb_neq; lia).
    cbn [level_at tok_children]. rewrite (IHcs k (S d)), Nat.add_succ_comm. reflexivity.
Qed.

Theorem levels_are_depth_classes t k :
  level_at k t = map fst (filter (fun p => snd p =? k) (preorder t 0)).
Proof.
  rewrite <- (app_nil_r (level_at k t)), <- (app_nil_r (preorder t 0)). apply (flevel_at_filter [t] k 0).
Qed.

Lemma render_entry_line_of p : render_entry p = line_of p.
Proof. destruct p as [[r s e cs] d]. destruct cs; reflexivity. Qed.

Lemma to_thin_unfold r s e cs : to_thin (Tok r s e cs) = Thin r s e (map to_thin cs).
Proof. reflexivity. Qed.

Lemma of_thin_to_thin_forest f : map of_thin (map to_thin f) = f.
Proof.
  induction f as [|r s e cs f IHcs IHf] using forest_ind; [reflexivity|].
  cbn [map to_thin of_thin]. rewrite IHcs, IHf. reflexivity.
Qed.

Lemma of_thin_to_thin t : of_thin (to_thin t) = t.
Proof. pose proof (of_thin_to_thin_forest [t]) as H. injection H as H. exact H. Qed.

Lemma thin_preorder_to_thin_forest f : forall d,
  flat_map (fun c => thin_preorder c d) (map to_thin f) = map tok_quad (flat_map (fun c => preorder c d) f).
Proof.
  induction f as [|r s e cs f IHcs IHf] using forest_ind; intros d; [reflexivity|].
  cbn [map to_thin flat_map thin_preorder preorder app]. rewrite map_app, IHcs, IHf. reflexivity.
Qed.

Lemma thin_preorder_to_thin t d : thin_preorder (to_thin t) d = map tok_quad (preorder t d).
Proof.
  rewrite <- (app_nil_r (thin_preorder _ d)), <- (app_nil_r (preorder t d)). apply (thin_preorder_to_thin_forest [t]).
Qed.

Lemma as_thin_token_spec t : as_thin_token t = to_thin t.
Proof. unfold as_thin_token. rewrite as_token_id. reflexivity. Qed.

Theorem c15_render : forall t fuel,
  fuel_for t <= fuel ->
  render fuel t = Some (map line_of (preorder t 0)).
Proof.
  intros t fuel Hf. unfold render. rewrite (pre_order_correct t fuel Hf). cbn [option_map].
  f_equal. apply map_ext. apply render_entry_line_of.
Qed.
