(* C03 -- check-only entry points give the same verdict, offset and error as parsing.
   Statements only; every proof is `exact` of a lemma of Proofs/CheckParse.v or Proofs/SameReport.v. *)
From PT Require Import Model.Base Model.Sem Model.Tracker Model.Report Proofs.CheckParse Proofs.SameReport.

(* For every environment (grammar, skip type, input of any of the three forms), every expression,
   every starting cursor / stack / tracker trace and every amount of fuel: the check path returns the
   result of the parse path with the tree erased -- same verdict, same cursor, same stack and the same
   tracker event trace (hence the same error report). The parse path may not panic (C09 shows it does
   not on valid UTF-8); running out of fuel is preserved, not hidden. *)
Theorem C03_check_is_parse : forall E fuel inh e pos st,
  tparse E fuel inh e pos st <> Panic ->
  tcheck E fuel inh e pos st = erase (tparse E fuel inh e pos st).
Proof. exact check_is_parse. Qed.
Print Assumptions C03_check_is_parse.

(* the partial entry points of a rule struct *)
Theorem C03_partial_entry : forall E fuel r,
  try_parse_partial E fuel r <> Panic ->
  try_check_partial E fuel r = erase (try_parse_partial E fuel r).
Proof. exact try_check_partial_is_parse. Qed.
Print Assumptions C03_partial_entry.

(* the full entry points (trailing skip and EOI attempt included) *)
Theorem C03_full_entry : forall E fuel r,
  try_parse E fuel r <> Panic ->
  try_check E fuel r = erase_all (try_parse E fuel r).
Proof. exact try_check_is_parse. Qed.
Print Assumptions C03_full_entry.

(* "... and on failure produce the identical error report": a rejected full parse and the full check leave the same state, hence
   the same tracker (position, expected / unexpected lists per enclosing rule, special errors) and the same rendered report *)
Theorem C03_same_report : forall E fuel r st,
  try_parse E fuel r = Fail st ->
  try_check E fuel r = Fail st /\
  forall st', try_check E fuel r = Fail st' ->
    run_tracker (i_start (e_inp E)) (tr st') = run_tracker (i_start (e_inp E)) (tr st) /\
    report (run_tracker (i_start (e_inp E)) (tr st')) = report (run_tracker (i_start (e_inp E)) (tr st)).
Proof. exact full_same_report. Qed.
Print Assumptions C03_same_report.

Theorem C03_check_fail_parse_fail : forall E fuel r st,
  try_parse E fuel r <> Panic -> try_check E fuel r = Fail st -> try_parse E fuel r = Fail st.
Proof. exact full_check_fail_parse_fail. Qed.
Print Assumptions C03_check_fail_parse_fail.
