(* C05 -- a failed alternative, optional, iteration or lookahead leaves no trace.
   Statements only; proofs are in Proofs/Refine.v, Proofs/RefineCor.v, Proofs/RefinePanic.v. *)
From Coq Require Import List NArith.
From PT Require Import Model.Base Model.Stack Model.Texpr Model.Sem Model.Aparse.
From PT Require Import Proofs.StackInv Proofs.Refine Proofs.RefineCor Proofs.Boundary Proofs.RefinePanic.
Import ListNotations.

(* Refinement. [aparse] is the interpreter in which a failed alternative / optional body / iteration /
   predicate operand simply continues from the position and the (immutable) stack value that held before
   it was tried, and predicates always continue from the old stack. For the repaired code
   ([fixed E]: restore_on_none by content, skip_until cut at end(), MIN re-tested after the loop), for
   every expression, cursor, fuel, and every concrete pest::Stack satisfying its representation invariant
   w.r.t. the enclosing open snapshots [gs]: the real parse path returns the same verdict, the same
   cursor, the same tree and the same stack *content* as [aparse] does from that content, and keeps the
   invariant -- whether it succeeds or fails. (The reference run may not panic: C09.) *)
Theorem C05_no_trace : forall E, fixed E -> forall fuel inh e pos st gs,
  SInv (stk st) gs ->
  aparse E fuel inh e pos (cache (stk st)) <> APanic ->
  rel gs (tparse E fuel inh e pos st) (aparse E fuel inh e pos (cache (stk st))).
Proof. exact tparse_refines_aparse. Qed.
Print Assumptions C05_no_trace.

(* The premise about the reference run can be dropped for everything a Rust caller can build (valid UTF-8 input and
   literals, cursor and stack spans on character boundaries: [env_ok], [lits_ok], [pre] of C09): there neither run panics. *)
Theorem C05_no_trace_good : forall E, fixed E -> env_ok E -> forall fuel inh e pos st gs,
  lits_ok e -> pre (e_inp E) pos st gs ->
  rel gs (tparse E fuel inh e pos st) (aparse E fuel inh e pos (cache (stk st))).
Proof. exact tparse_refines_aparse_good. Qed.
Print Assumptions C05_no_trace_good.

Theorem C05_entry_good : forall E fuel r, fixed E -> env_ok E ->
  rel [] (try_parse_partial E fuel r) (aparse E fuel true (TRule r SkOn) (i_start (e_inp E)) []).
Proof. exact try_parse_partial_refines'. Qed.
Print Assumptions C05_entry_good.

(* without those hypotheses the premise cannot be moved to the real path: the reference interpreter follows the parse
   path everywhere and so trips debug assertions (cursor off a boundary) that the check path, used under `!` and in
   span-only rules, does not *)
Theorem C05_panic_premise_needed : exists E fuel inh e pos st gs,
  fixed E /\ SInv (stk st) gs /\ tparse E fuel inh e pos st <> Panic /\
  ~ rel gs (tparse E fuel inh e pos st) (aparse E fuel inh e pos (cache (stk st))).
Proof. exact tparse_refines_aparse'_refuted. Qed.
Print Assumptions C05_panic_premise_needed.

(* every entry point starts from an empty stack, which satisfies the invariant *)
Theorem C05_entry : forall E fuel r, fixed E ->
  aparse E fuel true (TRule r SkOn) (i_start (e_inp E)) [] <> APanic ->
  rel [] (try_parse_partial E fuel r) (aparse E fuel true (TRule r SkOn) (i_start (e_inp E)) []).
Proof. exact try_parse_partial_refines. Qed.
Print Assumptions C05_entry.

(* predicates restore the stack even when their operand matches *)
Theorem C05_pred_restores : forall E, fixed E -> forall fuel inh e pos st gs p t st',
  SInv (stk st) gs ->
  aparse E fuel inh (TPos e) pos (cache (stk st)) <> APanic ->
  tparse E fuel inh (TPos e) pos st = Ok (p, t) st' ->
  p = pos /\ cache (stk st') = cache (stk st) /\ SInv (stk st') gs.
Proof. exact pred_restores. Qed.
Print Assumptions C05_pred_restores.

(* the finding repaired by "fix: restore_on_none restores the stack by content": with the original
   snapshot/clear_snapshot/restore discipline the statement is false *)
Theorem C05_refuted_before_fix :
  is_fail (tparse (w_env false [97; 97]%N) 20 true w_expr 0 st0) = true /\
  is_aok (aparse (w_env false [97; 97]%N) 20 true w_expr 0 []) = true.
Proof. exact unrepaired_loses_pop. Qed.
Print Assumptions C05_refuted_before_fix.
