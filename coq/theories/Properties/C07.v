(* C07 -- atomicity is inherited and implicit skipping applied exactly as in pest. Statements only. *)
From Coq Require Import List NArith.
From PT Require Import Model.Base Model.Texpr Model.Sem Model.Aparse Model.Ast Model.Translate Model.PegSpec Model.GenEnv.
From PT Require Import Proofs.GenWitness Proofs.SkipPositions Proofs.RepSpec Proofs.PegSimBase Proofs.PegSimFwd.
Import ListNotations.

(* generator: every sequence and repetition of a rule's translated body carries the skip token of the DEFINING
   rule (0 for @ and $, 1 for !, INHERITED for normal and silent rules) ... *)
Theorem C07_skip_token : forall eoi k e, skips_are k (tr eoi k e).
Proof. exact tr_skips. Qed.
Print Assumptions C07_skip_token.

(* ... and so does every reference to a defined rule *)
Theorem C07_rule_reference : forall eoi k r, tr eoi k (OIdent (IdRule r)) = TRule r k.
Proof. exact tr_ident_rule. Qed.
Print Assumptions C07_rule_reference.

(* inheritance: what the skip flag of a rule body resolves to, by the kind of its rule: atomic and compound-atomic
   switch skipping off, non-atomic switches it on, normal and silent rules take the caller's value *)
Theorem C07_inheritance : forall kind inh,
  resolve (skip_of_kind kind) inh =
  match kind with
  | KAtomic | KCompound => false
  | KNonAtomic => true
  | KNormal | KSilent => inh
  end.
Proof. exact resolve_by_kind. Qed.
Print Assumptions C07_inheritance.

(* inside the implicit skip, WHITESPACE and COMMENT are matched with SKIP = 0 *)
Theorem C07_skip_rules_atomic : forall ws cm e,
  skip_of ws cm = SkipRep e ->
  (exists w, e = TRule w SkOff) \/ (exists w c, e = TChoice [TRule w SkOff; TRule c SkOff]).
Proof. exact skip_rules_called_atomically. Qed.
Print Assumptions C07_skip_rules_atomic.

(* runtime: no skip before the first element / iteration 0; none at all when the flag is off *)
Theorem C07_no_skip_at_start : forall E P lf b pos st,
  pre_skip_p E P lf b false pos st = Ok (pos, if b then [skip_default E] else []) st.
Proof. exact no_skip_at_start. Qed.
Print Assumptions C07_no_skip_at_start.

Theorem C07_no_skip_when_off : forall E P lf doit pos st,
  pre_skip_p E P lf false doit pos st = Ok (pos, []) st.
Proof. exact no_skip_when_off. Qed.
Print Assumptions C07_no_skip_when_off.

(* never at the start or end of a rule: the rule's span is exactly what its body consumed *)
Theorem C07_no_skip_at_rule_edges : forall E fuel inh r arg pos st p t st',
  tparse E (S fuel) inh (TRule r arg) pos st = Ok (p, t) st' ->
  match t with
  | NRule r' _ (Some (s, e)) => r' = r /\ s = pos /\ e = p
  | NRule r' _ None => r' = r /\ r_emis (e_rules E r) = EmExpr
  | _ => False
  end.
Proof. exact rule_body_starts_at_rule_start. Qed.
Print Assumptions C07_no_skip_at_rule_edges.

(* a skip made before an iteration that then fails is given back: the repetition ends at the cursor after the
   last matched unit (C19_rep_bounds, restated) *)
Theorem C07_rep_gives_back : forall E fuel inh k mn mx e pos stk,
  let b := resolve k inh in
  match aparse E (S fuel) inh (TRep k mn mx e) pos stk with
  | AOk (pos', t) stk' =>
      exists its, t = NRep (bounded mx) its /\
                  units E (aparse E fuel) fuel b inh e 0 pos stk its pos' stk' /\
                  mn <= length its /\
                  (forall m, mx = Some m -> length its <= m) /\
                  stopped E (aparse E fuel) fuel b inh e mx (length its) pos' stk'
  | AFail =>
      exists its pos' stk', units E (aparse E fuel) fuel b inh e 0 pos stk its pos' stk' /\
                  length its < mn /\
                  stopped E (aparse E fuel) fuel b inh e mx (length its) pos' stk'
  | _ => True
  end.
Proof. exact aparse_rep_bounds. Qed.
Print Assumptions C07_rep_gives_back.

(* "exactly as in pest": the invariant that carries the whole comparison with pest's DYNAMIC atomicity.  [ctx e k inh at_]
   says the typed skip flag (the const argument k resolved against the inherited value) is on exactly when pest's
   atomicity state is NonAtomic (or the expression cannot tell).  For every expression of every rule of a grammar whose
   WHITESPACE / COMMENT cannot tell ([ws_ok]), in every such related context, whatever pest's PEG semantics answers
   (Model/PegSpec.v: skips between sequence elements and between repetition iterations only in NonAtomic state, @ and $
   switch it off for everything reached through normal and silent rules, ! switches it back on, WHITESPACE / COMMENT forced
   atomic) the translated type answers too, with the same offset and stack -- the relation is re-established at every rule
   call by the generator's choice of 0 / 1 / INHERITED (call_ctx). *)
Theorem C07_atomicity_simulation : forall g eoi I pred,
  ws_ok g = true -> eoi_fresh eoi g = true -> forall n,
  forall at_ la e pos stk k inh,
  ctx e k inh at_ -> refs_ok eoi g e = true ->
  exists m, forall m', m <= m' ->
    fsim (peg (penv_of eoi g I pred) n at_ la e pos stk) (aparse (env_of eoi g I pred) m' inh (tr eoi k e) pos stk).
Proof. exact (fun g eoi I pred Hws Heoi n => proj1 (peg_fwd g eoi I pred Hws Heoi n)). Qed.
Print Assumptions C07_atomicity_simulation.

(* known finding (class WsNonAtomic): referenced explicitly, WHITESPACE is NOT matched atomically *)
Theorem C07_refuted_ws :
  (match tparse (env_of 0 wg (inp_of_str w_input) no_pred) 30 true (TRule 1 SkOn) 0 st0 with
   | Ok (p, _) _ => p = 4 | _ => False end) /\
  peg_entry (penv_of 0 wg (inp_of_str w_input) no_pred) 30 1 = PFail /\
  ws_ok wg = false.
Proof. exact ws_not_forced_atomic. Qed.
Print Assumptions C07_refuted_ws.

From PT Require Import Model.SkipN Proofs.SkipNProofs.

(* the never-failing entry points of the MIN = 0 repetitions (`NeverFailedTypedNode::parse_with` / `check_with`; Model/SkipN.v, any
   skip count, any skip node) place their skips exactly where the fallible entry points do -- they compute the same offset and the
   same value, whose unit chain (C19_skipn_rep_match_iff) has the first element WITHOUT skips and every later one after exactly k skips *)
Theorem C07_never_failing_entry_points : forall f s n pos, skip_shape n = true ->
  sparse_nf f s n pos = sparse f s n pos /\ scheck_nf f s n pos = scheck f s n pos /\
  sparse_nf f s n pos <> SFailed /\ scheck_nf f s n pos <> SFailed /\
  scheck_nf f s n pos = pos_of (sparse_nf f s n pos).
Proof. exact nf_entry_points. Qed.
Print Assumptions C07_never_failing_entry_points.
