(* C09 -- for arbitrary Unicode input every entry point returns Ok or Err without panicking, and every
   offset it reports (returned cursor, every span in the tree, the error location) lies within the
   given input range on a character boundary, so that span text can always be taken; identically in
   debug and in release builds ([MPanic] / [Panic] model both the debug panic and the release-mode
   undefined behaviour of unchecked slicing).
   Statements only; proofs are in Proofs/BoundaryOps.v (cursor operations) and Proofs/Boundary.v
   (interpreters, entry points, tracker).

   Vocabulary (Proofs/BoundaryOps.v, Proofs/Boundary.v):
   [valid_utf8 s]   s = encode cs for characters cs that are all Unicode scalar values;
   [good_inp I]     the parent string is valid UTF-8, start() <= end() <= len, both on boundaries
                    (any of the three input forms);
   [good_cur I c]   c is a character boundary of the parent and start() <= c <= end();
   [good_span I sp] two good cursors in order;
   [ret_good I c m] m = MOk o, and if o = Some c' then c <= c' and c' is a good cursor;
   [good_node I t]  every (start, end) pair stored anywhere in the tree ([node_spans t]) is a good span;
   [good_state I st] every span in the stack's cache and popped lists is good and every position an
                    event of the trace hands to the tracker ([ev_pos]) is a good cursor;
   [lits_ok e]      the needles of the TStr nodes of e ([str_lits e]) are valid UTF-8 (the needles of
                    TInsens and TSkipUntil may be arbitrary bytes);
   [env_ok E]       good input, repaired skip_until and restore_on_none, [lits_ok] for every rule body
                    and for the skip definition;
   [SInv s gs]      representation invariant of pest::Stack (Proofs/StackInv.v). *)
From Coq Require Import List.
From PT Require Import Model.Base Model.Sem Model.Tracker Model.LinesSpec.
From PT Require Import Proofs.StackInv Proofs.BoundaryOps Proofs.Boundary.

(* every operation, from one good cursor: it returns normally and what it returns is good *)
Theorem C09_matchers : forall I c, good_inp I -> good_cur I c ->
  (exists rs, valid_str rs /\ i_get I c = MOk (encode rs)) /\
  (forall t, valid_utf8 t -> ret_good I c (i_match_string I t c)) /\
  (forall t, ret_good I c (i_match_insens I t c)) /\
  (forall n, ret_good I c (i_skip I n c)) /\
  (forall f, exists o, i_match_char I f c = MOk o /\
     forall c' ch, o = Some (c', ch) -> c < c' /\ good_cur I c' /\ c' = c + len_utf8 ch) /\
  (forall ss, c <= snd (i_skip_until I true ss c) /\ good_cur I (snd (i_skip_until I true ss c))) /\
  (forall y, good_cur I y -> c <= y ->
     i_span I c y = MOk (c, y) /\ exists txt, span_str I (c, y) = MOk txt /\ valid_utf8 txt).
Proof. exact matchers_good. Qed.
Print Assumptions C09_matchers.

(* UTF-8 is a prefix code: a valid needle that is a byte prefix is a character prefix *)
Theorem C09_prefix_code : forall ts m, valid_str ts -> valid_str m ->
  is_prefix (encode ts) (encode m) = true -> exists m2, m = ts ++ m2.
Proof. exact is_prefix_encode. Qed.
Print Assumptions C09_prefix_code.

(* the operations one by one, with [ret_good] spelled out *)

(* Input::get(): the remaining text is valid UTF-8 starting at a character *)
Theorem C09_get : forall I c, good_inp I -> good_cur I c ->
  exists rs, valid_str rs /\ i_get I c = MOk (encode rs).
Proof. exact get_good. Qed.
Print Assumptions C09_get.

Theorem C09_match_string : forall I t c, good_inp I -> good_cur I c -> valid_utf8 t ->
  exists o, i_match_string I t c = MOk o /\ forall c', o = Some c' -> c <= c' /\ good_cur I c'.
Proof. exact match_string_good. Qed.
Print Assumptions C09_match_string.

Theorem C09_match_insens : forall I t c, good_inp I -> good_cur I c ->
  exists o, i_match_insens I t c = MOk o /\ forall c', o = Some c' -> c <= c' /\ good_cur I c'.
Proof. exact match_insens_good. Qed.
Print Assumptions C09_match_insens.

Theorem C09_skip : forall I n c, good_inp I -> good_cur I c ->
  exists o, i_skip I n c = MOk o /\ forall c', o = Some c' -> c <= c' /\ good_cur I c'.
Proof. exact skip_good. Qed.
Print Assumptions C09_skip.

(* match_char_by / match_range / next: advance by the decoded character, whose text can be re-taken *)
Theorem C09_match_char : forall I f c, good_inp I -> good_cur I c ->
  exists o, i_match_char I f c = MOk o /\
    forall c' ch, o = Some (c', ch) ->
      c < c' /\ c' = c + len_utf8 ch /\ good_cur I c' /\ valid_char ch = true /\
      i_span I c c' = MOk (c, c') /\ span_str I (c, c') = MOk (enc ch).
Proof. exact match_char_good. Qed.
Print Assumptions C09_match_char.

(* skip_until, repaired code (cut = true) *)
Theorem C09_skip_until : forall I ss c, good_inp I -> good_cur I c ->
  c <= snd (i_skip_until I true ss c) /\ good_cur I (snd (i_skip_until I true ss c)).
Proof. exact skip_until_good. Qed.
Print Assumptions C09_skip_until.

(* start.span(end) and span.as_str() *)
Theorem C09_span : forall I x y, good_inp I -> good_cur I x -> good_cur I y -> x <= y ->
  i_span I x y = MOk (x, y) /\ exists ms, valid_str ms /\ span_str I (x, y) = MOk (encode ms).
Proof. exact span_good. Qed.
Print Assumptions C09_span.

(* the parse path: started at a good cursor in a good state, no expression panics; the cursor it returns
   is not behind the start and is good, and so are every span of the tree, every span on the stack and
   every position in the trace *)
Theorem C09_boundaries : forall E, env_ok E -> forall fuel inh e pos st gs,
  lits_ok e -> good_cur (e_inp E) pos -> good_state (e_inp E) st -> SInv (stk st) gs ->
  match tparse E fuel inh e pos st with
  | Ok (pos', t) st' =>
      pos <= pos' /\ good_cur (e_inp E) pos' /\ good_node (e_inp E) t /\
      good_state (e_inp E) st' /\ SInv (stk st') gs
  | Fail st' => good_state (e_inp E) st' /\ SInv (stk st') gs
  | Panic => False
  | Fuel => True
  end.
Proof.
  exact (fun E HE fuel inh e pos st gs Hl Hc Hst Hi =>
           tparse_boundaries E HE fuel inh e pos st gs Hl (mk_pre _ pos st gs Hc Hst Hi)).
Qed.
Print Assumptions C09_boundaries.

(* the same on the check path *)
Theorem C09_boundaries_check : forall E, env_ok E -> forall fuel inh e pos st gs,
  lits_ok e -> good_cur (e_inp E) pos -> good_state (e_inp E) st -> SInv (stk st) gs ->
  match tcheck E fuel inh e pos st with
  | Ok pos' st' => pos <= pos' /\ good_cur (e_inp E) pos' /\ good_state (e_inp E) st' /\ SInv (stk st') gs
  | Fail st' => good_state (e_inp E) st' /\ SInv (stk st') gs
  | Panic => False
  | Fuel => True
  end.
Proof.
  exact (fun E HE fuel inh e pos st gs Hl Hc Hst Hi =>
           tcheck_boundaries E HE fuel inh e pos st gs Hl (mk_pre _ pos st gs Hc Hst Hi)).
Qed.
Print Assumptions C09_boundaries_check.

(* the four entry points *)
Theorem C09_entry_points : forall E fuel r, env_ok E ->
  match try_parse_partial E fuel r with
  | Ok (pos', t) st' =>
      i_start (e_inp E) <= pos' /\ good_cur (e_inp E) pos' /\ good_node (e_inp E) t /\ good_state (e_inp E) st'
  | Fail st' => good_state (e_inp E) st'
  | Panic => False
  | Fuel => True
  end /\
  match try_check_partial E fuel r with
  | Ok pos' st' => i_start (e_inp E) <= pos' /\ good_cur (e_inp E) pos' /\ good_state (e_inp E) st'
  | Fail st' => good_state (e_inp E) st'
  | Panic => False
  | Fuel => True
  end /\
  match try_parse E fuel r with
  | Ok t st' => good_node (e_inp E) t /\ good_state (e_inp E) st'
  | Fail st' => good_state (e_inp E) st'
  | Panic => False
  | Fuel => True
  end /\
  match try_check E fuel r with
  | Ok _ st' => good_state (e_inp E) st'
  | Fail st' => good_state (e_inp E) st'
  | Panic => False
  | Fuel => True
  end.
Proof. exact c09_entry_points. Qed.
Print Assumptions C09_entry_points.

(* the error location: the tracker's position after replaying the trace of any entry point *)
Theorem C09_tracker_position : forall E, env_ok E -> forall st,
  good_state (e_inp E) st ->
  good_cur (e_inp E) (t_position (run_tracker (i_start (e_inp E)) (tr st))).
Proof. exact (fun E HE st => tracker_position_good (e_inp E) st (proj1 HE)). Qed.
Print Assumptions C09_tracker_position.

Theorem C09_error_location : forall E fuel r, env_ok E ->
  forall st,
    (final_state (try_parse_partial E fuel r) = Some st \/ final_state (try_check_partial E fuel r) = Some st \/
     final_state (try_parse E fuel r) = Some st \/ final_state (try_check E fuel r) = Some st) ->
    good_cur (e_inp E) (t_position (run_tracker (i_start (e_inp E)) (tr st))).
Proof. exact entry_error_location. Qed.
Print Assumptions C09_error_location.

(* span text can always be taken *)
Theorem C09_span_text : forall I t, good_inp I -> good_node I t ->
  forall sp, In sp (node_spans t) -> exists txt, span_str I sp = MOk txt /\ valid_utf8 txt.
Proof. exact good_node_span_text. Qed.
Print Assumptions C09_span_text.

(* a `&str` made of Unicode scalar values is a good input *)
Theorem C09_str_input : forall cs, valid_str cs -> good_inp (inp_of_str (encode cs)).
Proof. exact good_inp_str. Qed.
Print Assumptions C09_str_input.
