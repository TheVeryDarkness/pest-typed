(* C10 -- error reports are in bounds, not before consumed input, and truthful. Statements only. *)
From Coq Require Import List NArith.
From PT Require Import Model.Base Model.Texpr Model.Sem Model.Tracker Model.Report.
From Coq Require Import Sorted.
From PT Require Import Proofs.TrackerProofs Proofs.TraceSound Proofs.ReportProofs.
From PT Require Import Model.Lines Model.LinesSpec Model.ReportHead Proofs.Boundary Proofs.ReportHeadProofs.
Import ListNotations.

(* the reported location is never before the starting cursor (boundary / upper bound: C09_error_location) *)
Theorem C10_position_ge_start : forall start trace, start <= t_position (run_tracker start trace).
Proof. exact position_ge_start. Qed.
Print Assumptions C10_position_ge_start.

(* truthfulness of the tracker w.r.t. the run's event history, for every event trace: every rule listed as
   expected has an exit event with verdict `false` at exactly the reported position, every rule listed as
   unexpected an exit event with verdict `true` there, every special error its event there *)
Theorem C10_tracker_truth : forall start trace,
  Forall (entry_ok trace (t_position (run_tracker start trace))) (t_attempts (run_tracker start trace)).
Proof. exact tracker_truth. Qed.
Print Assumptions C10_tracker_truth.

(* a full parse whose prefix parse matched up to [pos] is rejected only by the EOI attempt after the trailing
   skip, and the reported location is at or after the cursor of that attempt (= pos without trailing skip) *)
Theorem C10_location : forall E fuel r pos t st st'',
  try_parse_partial E fuel r = Ok (pos, t) st ->
  try_parse E fuel r = Fail st'' ->
  exists pos' st',
    (if no_ignore E r then pos' = pos /\ st' = st
     else exists t', top_skip_p E fuel pos st = Ok (pos', t') st') /\
    i_at_end (e_inp E) pos' = false /\
    st'' = ev (EExit (e_eoi E) pos' false) (ev (EEnter (e_eoi E) pos') st') /\
    pos' <= t_position (run_tracker (i_start (e_inp E)) (tr st'')).
Proof. exact rejected_full_parse_location. Qed.
Print Assumptions C10_location.

(* Trace soundness: the events the tracker is fed are backed by real runs.  Definitions used (all in Proofs/TraceSound.v):
     verdict r        = Some true (Ok) / Some false (Fail) / None (Panic, Fuel)
     final r          = Some st' for Ok _ st' and Fail st', None otherwise
     justified E ev   = for ev = EExit r p ok:
                          exists fuel inh st1,
                            verdict (tcheck E fuel inh (r_body (e_rules E r)) p (ev (EEnter r p) st1)) = Some ok
                        True for every other event
     justified_eoi E ev = for ev = EExit r p ok: r = e_eoi E /\ i_at_end (e_inp E) p = ok; True otherwise
     justified_top E ev = justified E ev \/ justified_eoi E ev
     rule_outcome E r p ok = (r = e_eoi E /\ i_at_end (e_inp E) p = ok) \/
                             exists fuel inh st1, verdict (tcheck ... r ... p (ev (EEnter r p) st1)) = Some ok *)

(* a terminated run only adds events at the head of the trace *)
Theorem C10_trace_extends_parse : forall E fuel inh e pos st st',
  (exists a, tparse E fuel inh e pos st = Ok a st') \/ tparse E fuel inh e pos st = Fail st' ->
  exists new, tr st' = new ++ tr st.
Proof. exact trace_extends_parse. Qed.
Print Assumptions C10_trace_extends_parse.

Theorem C10_trace_extends_check : forall E fuel inh e pos st st',
  (exists a, tcheck E fuel inh e pos st = Ok a st') \/ tcheck E fuel inh e pos st = Fail st' ->
  exists new, tr st' = new ++ tr st.
Proof. exact trace_extends_check. Qed.
Print Assumptions C10_trace_extends_check.

(* every exit event a run logs (all constructs, both paths) is backed by the verdict of the rule's body run
   through the check path at that position in SOME state just after an enter event of the rule: [justified]
   quantifies the state and the inherited flag existentially, it does not say they are those of the attempt *)
Theorem C10_trace_sound : forall E fuel inh e pos st st',
  final (tparse E fuel inh e pos st) = Some st' ->
  exists new, tr st' = new ++ tr st /\ Forall (justified E) new.
Proof. exact trace_sound_parse. Qed.
Print Assumptions C10_trace_sound.

Theorem C10_trace_sound_check : forall E fuel inh e pos st st',
  final (tcheck E fuel inh e pos st) = Some st' ->
  exists new, tr st' = new ++ tr st /\ Forall (justified E) new.
Proof. exact trace_sound_check. Qed.
Print Assumptions C10_trace_sound_check.

(* entry points: the whole trace *)
Theorem C10_try_parse_partial_sound : forall E fuel r st',
  final (try_parse_partial E fuel r) = Some st' -> Forall (justified E) (tr st').
Proof. exact try_parse_partial_sound. Qed.
Print Assumptions C10_try_parse_partial_sound.

Theorem C10_try_check_partial_sound : forall E fuel r st',
  final (try_check_partial E fuel r) = Some st' -> Forall (justified E) (tr st').
Proof. exact try_check_partial_sound. Qed.
Print Assumptions C10_try_check_partial_sound.

(* full entry points: additionally the exit event of the EOI attempt, justified by the end-of-input test *)
Theorem C10_try_parse_sound : forall E fuel r st',
  final (try_parse E fuel r) = Some st' -> Forall (justified_top E) (tr st').
Proof. exact try_parse_sound. Qed.
Print Assumptions C10_try_parse_sound.

Theorem C10_try_check_sound : forall E fuel r st',
  final (try_check E fuel r) = Some st' -> Forall (justified_top E) (tr st').
Proof. exact try_check_sound. Qed.
Print Assumptions C10_try_check_sound.

(* the report of a rejected full parse: every rule listed as expected fails to match at the reported position
   in some state just after its enter event (or is the EOI pseudo-rule and the position is not the end of the input);
   every rule listed as unexpected matches there *)
Theorem C10_report_truthful : forall E fuel r st',
  try_parse E fuel r = Fail st' ->
  forall en, In en (t_attempts (run_tracker (i_start (e_inp E)) (tr st'))) ->
    (forall r', In r' (te_pos en) ->
       (r' = e_eoi E /\ i_at_end (e_inp E) (t_position (run_tracker (i_start (e_inp E)) (tr st'))) = false) \/
       (exists fuel' inh' st1,
          verdict (tcheck E fuel' inh' (r_body (e_rules E r'))
                     (t_position (run_tracker (i_start (e_inp E)) (tr st')))
                     (ev (EEnter r' (t_position (run_tracker (i_start (e_inp E)) (tr st')))) st1)) = Some false)) /\
    (forall r', In r' (te_neg en) ->
       (r' = e_eoi E /\ i_at_end (e_inp E) (t_position (run_tracker (i_start (e_inp E)) (tr st'))) = true) \/
       (exists fuel' inh' st1,
          verdict (tcheck E fuel' inh' (r_body (e_rules E r'))
                     (t_position (run_tracker (i_start (e_inp E)) (tr st')))
                     (ev (EEnter r' (t_position (run_tracker (i_start (e_inp E)) (tr st')))) st1)) = Some true)).
Proof. exact report_truthful. Qed.
Print Assumptions C10_report_truthful.

Theorem C10_report_truthful_check : forall E fuel r st',
  try_check E fuel r = Fail st' ->
  forall en, In en (t_attempts (run_tracker (i_start (e_inp E)) (tr st'))) ->
    (forall r', In r' (te_pos en) ->
       rule_outcome E r' (t_position (run_tracker (i_start (e_inp E)) (tr st'))) false) /\
    (forall r', In r' (te_neg en) ->
       rule_outcome E r' (t_position (run_tracker (i_start (e_inp E)) (tr st'))) true).
Proof. exact report_truthful_check. Qed.
Print Assumptions C10_report_truthful_check.

(* sharper for the unexpected list of a rejected full parse: no EOI alternative is needed *)
Theorem C10_report_unexpected_matches : forall E fuel r st',
  try_parse E fuel r = Fail st' ->
  forall en, In en (t_attempts (run_tracker (i_start (e_inp E)) (tr st'))) ->
  forall r', In r' (te_neg en) ->
    exists fuel' inh' st1,
      verdict (tcheck E fuel' inh' (r_body (e_rules E r'))
                 (t_position (run_tracker (i_start (e_inp E)) (tr st')))
                 (ev (EEnter r' (t_position (run_tracker (i_start (e_inp E)) (tr st')))) st1)) = Some true.
Proof. exact report_unexpected_matches. Qed.
Print Assumptions C10_report_unexpected_matches.

Theorem C10_report_unexpected_matches_check : forall E fuel r st',
  try_check E fuel r = Fail st' ->
  forall en, In en (t_attempts (run_tracker (i_start (e_inp E)) (tr st'))) ->
  forall r', In r' (te_neg en) ->
    exists fuel' inh' st1,
      verdict (tcheck E fuel' inh' (r_body (e_rules E r'))
                 (t_position (run_tracker (i_start (e_inp E)) (tr st')))
                 (ev (EEnter r' (t_position (run_tracker (i_start (e_inp E)) (tr st')))) st1)) = Some true.
Proof. exact report_unexpected_matches_check. Qed.
Print Assumptions C10_report_unexpected_matches_check.

(* [justified] is not vacuous: a rule whose body is AlwaysFail can never be logged as matched *)
Theorem C10_justified_discriminates : forall E r p,
  r_body (e_rules E r) = TFail -> ~ justified E (EExit r p true).
Proof. exact justified_discriminates. Qed.
Print Assumptions C10_justified_discriminates.

(* The rendered report: Model/Report.v transcribes Tracker::collect_to_message (one line per entry in BTreeMap order,
   lists sorted and de-duplicated, "Expected" / "Unexpected" / "Unexpected .., expected .." by which lists are empty). *)

(* every line comes from an entry of the tracker and calls a rule "expected" exactly when it is among that entry's
   positives, "unexpected" exactly when among its negatives; the enclosing rule and the special errors are the entry's *)
Theorem C10_report_says : forall t l, In l (report t) ->
  exists en, In en (t_attempts t) /\ l_by l = te_key en /\ l_special l = te_spec en /\
             (forall r, In r (says_expected l) <-> In r (te_pos en)) /\
             (forall r, In r (says_unexpected l) <-> In r (te_neg en)).
Proof. exact report_says. Qed.
Print Assumptions C10_report_says.

Theorem C10_report_complete : forall t en, In en (t_attempts t) -> In (line_of_entry en) (report t).
Proof. exact report_complete. Qed.
Print Assumptions C10_report_complete.

Theorem C10_report_lists_sorted : forall e,
  StronglySorted N.lt (says_expected (line_of_entry e)) /\ StronglySorted N.lt (says_unexpected (line_of_entry e)).
Proof. exact report_lists_sorted. Qed.
Print Assumptions C10_report_lists_sorted.

(* hence the statement of the property on the text of the report of a rejected full parse: every rule a line lists as expected
   really fails at the reported location in some state just after its enter event (or is EOI and the location is not the end of input),
   every rule listed as unexpected really matches there *)
Theorem C10_rendered_report_truthful : forall E fuel r st',
  try_parse E fuel r = Fail st' ->
  let T := run_tracker (i_start (e_inp E)) (tr st') in
  forall l, In l (report T) ->
    (forall r', In r' (says_expected l) ->
       (r' = e_eoi E /\ i_at_end (e_inp E) (t_position T) = false) \/
       (exists fuel' inh' st1,
          verdict (tcheck E fuel' inh' (r_body (e_rules E r')) (t_position T) (ev (EEnter r' (t_position T)) st1)) = Some false)) /\
    (forall r', In r' (says_unexpected l) ->
       exists fuel' inh' st1,
          verdict (tcheck E fuel' inh' (r_body (e_rules E r')) (t_position T) (ev (EEnter r' (t_position T)) st1)) = Some true).
Proof. exact rendered_report_truthful. Qed.
Print Assumptions C10_rendered_report_truthful.

(* The head of the rendered message: `&line[..index_of_the_(col-1)th_char]` (tracker.rs collect_to_message). *)

(* at every character boundary of every string the slice is taken without panic and is the text between the last LF before the
   location and the location -- byte index of the (col-1)-th char, not col-1 itself *)
Theorem C10_head_line : forall cs k, valid_str cs ->
  head_line (encode cs) (boff cs k) = MOk (encode (after_last_lf (firstn k cs))).
Proof. exact head_line_correct. Qed.
Print Assumptions C10_head_line.

Theorem C10_head_line_no_panic : forall cs p, valid_str cs -> pos_new (encode cs) p = Some p ->
  exists h, head_line (encode cs) p = MOk h.
Proof. exact head_line_no_panic. Qed.
Print Assumptions C10_head_line_no_panic.

(* hence at the location reported for any entry point on any input string *)
Theorem C10_entry_report_head_renders : forall E fuel r cs, env_ok E -> valid_str cs -> parent (e_inp E) = encode cs ->
  forall st,
    (final_state (try_parse_partial E fuel r) = Some st \/ final_state (try_check_partial E fuel r) = Some st \/
     final_state (try_parse E fuel r) = Some st \/ final_state (try_check E fuel r) = Some st) ->
    exists h, head_line (encode cs) (t_position (run_tracker (i_start (e_inp E)) (tr st))) = MOk h.
Proof. exact entry_report_head_renders. Qed.
Print Assumptions C10_entry_report_head_renders.

(* the statement is not vacuous, and indexing by the column itself would panic: "\229\144\141=" (one CJK character, then '=') at its end *)
Theorem C10_head_line_example :
  head_line [229; 144; 141; 61]%N 4 = MOk [229; 144; 141; 61]%N /\ head_line_charidx [229; 144; 141; 61]%N 4 = MPanic.
Proof. exact (conj (proj1 (proj2 ex_name_eq)) ex_name_eq_charidx_panics). Qed.
Print Assumptions C10_head_line_example.
