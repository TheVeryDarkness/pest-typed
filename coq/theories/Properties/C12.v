(* C12 -- line, column and line text of every position agree with pest.
   Statements only; every proof is `exact` of a lemma of Proofs/LinesProofs.v or of an instance of one.

   A string is `encode cs` for a list cs of valid Unicode scalar values (that is what a Rust `&str`
   is); its character boundaries are exactly the offsets `boff cs k` (C12_boundaries).
   `line_col_t trap` is the transcription of position.rs:142-183 (`trap = false` is the real
   function; with `trap = true` the `if pos == 1` arm of the CRLF case returns LDead instead), `line_of`
   that of position.rs:202-244.  A result `LOk _` excludes LPanic (slice / underflow / explicit
   panic), LUnreachable (`unreachable!()`), LDead and LFuel (fuel = pos suffices). *)
From Coq Require Import List.
From PT Require Import Model.Base Model.Lines Model.LinesSpec Proofs.LinesProofs.
Import ListNotations.

(* line = 1 + #LF before the offset, column = 1 + #characters since the last LF before the offset,
   for every string and every boundary -- the CR/LF peeking loop is observationally the plain scan,
   never panics, never reaches unreachable!(), and the `pos == 1` arm is dead (holds for both traps) *)
Theorem C12_line_col : forall (cs : list char) (k : nat) (trap : bool),
  valid_str cs ->
  line_col_t trap (encode cs) (boff cs k) =
  LOk (1 + count_lf (firstn k cs), 1 + length (after_last_lf (firstn k cs))).
Proof. exact line_col_correct. Qed.
Print Assumptions C12_line_col.

(* line_of = from after the last LF strictly before the offset to just after the first LF at or after
   it (end of input if none); in particular the offset at end of input belongs to the last line;
   the `pos == len - 1` shortcut changes nothing; the slice never panics *)
Theorem C12_line_of : forall (cs : list char) (k : nat),
  valid_str cs ->
  line_of (encode cs) (boff cs k) =
  LOk (encode (after_last_lf (firstn k cs) ++ upto_lf (skipn k cs))).
Proof. exact line_of_correct. Qed.
Print Assumptions C12_line_of.

(* the offsets `Position::new` accepts (the character boundaries) are exactly the `boff cs k` *)
Theorem C12_boundaries : forall (cs : list char) (p : nat),
  valid_str cs ->
  (pos_new (encode cs) p = Some p <-> exists k, k <= length cs /\ p = boff cs k) /\
  (pos_new (encode cs) p = Some p \/ pos_new (encode cs) p = None).
Proof. exact pos_new_boundaries. Qed.
Print Assumptions C12_boundaries.

(* the wording of the property, read off the spec: passing CR LF is one line break ... *)
Theorem C12_crlf_is_one_break : forall pre : list char,
  line_col_spec (pre ++ [CR; LF]) (length pre + 2) = (fst (line_col_spec pre (length pre)) + 1, 1).
Proof. exact (fun pre => line_col_spec_app pre [CR; LF]). Qed.
Print Assumptions C12_crlf_is_one_break.

(* ... and a CR with no LF after it inside the prefix (a lone CR, or the offset between CR and LF)
   is one more column on the same line *)
Theorem C12_lone_cr_is_a_column : forall pre : list char,
  line_col_spec (pre ++ [CR]) (length pre + 1) =
  (fst (line_col_spec pre (length pre)), snd (line_col_spec pre (length pre)) + 1).
Proof. exact (fun pre => line_col_spec_app pre [CR]). Qed.
Print Assumptions C12_lone_cr_is_a_column.
