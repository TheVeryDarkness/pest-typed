(* C13 -- Span operations agree with pest's Span for every span.
   Statements only; every proof is `exact` of a lemma proved in Proofs/SpanProofs.v, but C13_as_str
   (LinesProofs.v), C13_merge_generated (SpanGenProofs.v) and the algebra at the end (SpanAlgebra.v).

   The model (Model/SpanOps.v) transcribes main/src/span.rs; a span over the string s is the pair
   (start, end).  `valid_span s a b` is the declarative notion: a <= b <= |s| and both offsets are
   character boundaries.  For s = encode cs these are exactly the pairs (boff cs i, boff cs j), i <= j. *)
From Coq Require Import List NArith Arith Bool.
From PT Require Import Model.Base Model.Lines Model.LinesSpec Model.SpanOps Proofs.SpanProofs Proofs.SpanGenProofs Proofs.SpanAlgebra.

(* Span::new: Some exactly for in-range, ordered, on-boundary pairs (every byte string s) *)
Theorem C13_new : forall (s : list byte) (a b : nat),
  span_new s a b = if valid_span s a b then Some (a, b) else None.
Proof. exact span_new_spec. Qed.
Print Assumptions C13_new.

Theorem C13_valid_spans : forall (cs : list char) (a b : nat), valid_str cs ->
  (valid_span (encode cs) a b = true <->
   exists i j, i <= j <= length cs /\ a = boff cs i /\ b = boff cs j).
Proof. exact valid_span_chars. Qed.
Print Assumptions C13_valid_spans.

(* Span::get, every range form (lo, hi in {Included n, Excluded n, Unbounded}, n < usize::MAX so that
   `n + 1` does not overflow): Span::new on the bounds shifted by the span's start, provided the range
   ends inside the span; no panic *)
Theorem C13_get : forall (s : list byte) (a b : nat) (lo hi : bound),
  valid_span s a b = true -> bound_ok lo -> bound_ok hi ->
  span_get s (a, b) lo hi =
  MOk (if (hi_of hi (b - a) <=? N.of_nat (b - a))%N
       then span_new s (a + N.to_nat (lo_of lo)) (a + N.to_nat (hi_of hi (b - a)))
       else None).
Proof. exact span_get_correct. Qed.
Print Assumptions C13_get.

(* split (= start_pos, end_pos) and as_str of a valid span do not panic and are the projections *)
Theorem C13_split : forall (s : list byte) (a b : nat),
  valid_span s a b = true -> span_split s (a, b) = MOk (a, b).
Proof. exact span_split_correct. Qed.
Print Assumptions C13_split.

Theorem C13_as_str : forall (cs : list char) (i j : nat), valid_str cs -> i <= j ->
  span_as_str (encode cs) (boff cs i, boff cs j) = MOk (encode (firstn (j - i) (skipn i cs))).
Proof. exact LinesProofs.slice_chars. Qed.
Print Assumptions C13_as_str.

(* lines_span: exactly the lines [ls, le) of the text with  le > start  and  ls <= end  (every line
   the span touches -- including, as in pest, the line that begins exactly at `end`), each once, in
   order; `length s` calls of next() suffice, no intermediate Span::new fails *)
Theorem C13_lines_span : forall (cs : list char) (i j : nat), valid_str cs -> i <= j ->
  lines_span (encode cs) (boff cs i, boff cs j) =
  LOk (filter (touches (boff cs i) (boff cs j)) (line_spans cs)).
Proof. exact lines_span_correct. Qed.
Print Assumptions C13_lines_span.

(* lines: the texts of those same line spans *)
Theorem C13_lines : forall (cs : list char) (i j : nat), valid_str cs -> i <= j ->
  lines (encode cs) (boff cs i, boff cs j) =
  LOk (map (slice_of (encode cs)) (lines_span_spec cs (boff cs i) (boff cs j))).
Proof. exact lines_correct. Qed.
Print Assumptions C13_lines.

(* merge_spans: Some exactly when a.end >= b.start and a.start <= b.end (overlapping or adjacent),
   and then the hull; symmetric *)
Theorem C13_merge : forall (s : list byte) (a1 a2 b1 b2 : nat),
  valid_span s a1 a2 = true -> valid_span s b1 b2 = true ->
  SpanOps.merge_spans s (a1, a2) (b1, b2) =
  if (b1 <=? a2) && (a1 <=? b2) then Some (Nat.min a1 b1, Nat.max a2 b2) else None.
Proof. exact merge_spans_correct. Qed.
Print Assumptions C13_merge.

(* the same over the definition REGENERATED from main/src/span.rs on every run (tie T1, tools/rs2v.py -> Gen/SpanGen.v):
   an edit of the condition or of the hull in the Rust source changes this definition and breaks the proof *)
Theorem C13_merge_generated : forall (s : list byte) (a1 a2 b1 b2 : nat),
  valid_span s a1 a2 = true -> valid_span s b1 b2 = true ->
  SpanGen.merge_spans (of_span s (a1, a2)) (of_span s (b1, b2)) =
  if (b1 <=? a2) && (a1 <=? b2) then Some (of_span s (Nat.min a1 b1, Nat.max a2 b2)) else None.
Proof. exact merge_gen_correct. Qed.
Print Assumptions C13_merge_generated.

Theorem C13_merge_sym : forall a b : span, merge_spec a b = merge_spec b a.
Proof. exact merge_spec_sym. Qed.
Print Assumptions C13_merge_sym.

(* == is identity of (input, start, end) *)
Theorem C13_eq : forall (same : bool) (a b : span), span_eq same a b = true <-> same = true /\ a = b.
Proof. exact span_eq_spec. Qed.
Print Assumptions C13_eq.

(* The algebra of the operations: what a user who composes them relies on, as with pest's Span. *)

(* a successful get lies inside the span, is a valid span, and its text is that slice of the span's text *)
Theorem C13_get_sub_text : forall (s : list byte) (a b : nat) (lo hi : bound) (a' b' : nat) (t : list byte),
  valid_span s a b = true -> bound_ok lo -> bound_ok hi ->
  span_get s (a, b) lo hi = MOk (Some (a', b')) ->
  span_as_str s (a, b) = MOk t ->
  a <= a' /\ a' <= b' /\ b' <= b /\ valid_span s a' b' = true /\
  span_as_str s (a', b') = MOk (firstn (b' - a') (skipn (a' - a) t)).
Proof. exact get_sub_text. Qed.
Print Assumptions C13_get_sub_text.

(* get of a get is the get with added offsets *)
Theorem C13_get_compose : forall (s : list byte) (a b : nat) (x y u v : N) (sp1 sp2 : span),
  valid_span s a b = true ->
  (y < usize_max)%N -> (u <= v)%N -> (v < usize_max)%N -> (x + v < usize_max)%N ->
  span_get s (a, b) (BIncl x) (BExcl y) = MOk (Some sp1) ->
  span_get s sp1 (BIncl u) (BExcl v) = MOk (Some sp2) ->
  span_get s (a, b) (BIncl (x + u)) (BExcl (x + v)) = MOk (Some sp2).
Proof. exact get_compose. Qed.
Print Assumptions C13_get_compose.

(* merging adjacent spans gives the span whose text is the concatenation of the two texts *)
Theorem C13_merge_adjacent_text : forall (s : list byte) (a m b : nat) (ta tb : list byte),
  valid_span s a m = true -> valid_span s m b = true ->
  span_as_str s (a, m) = MOk ta -> span_as_str s (m, b) = MOk tb ->
  SpanOps.merge_spans s (a, m) (m, b) = Some (a, b) /\ span_as_str s (a, b) = MOk (ta ++ tb).
Proof. exact merge_adjacent_text. Qed.
Print Assumptions C13_merge_adjacent_text.

Theorem C13_merge_idem : forall (s : list byte) (a b : nat),
  valid_span s a b = true -> SpanOps.merge_spans s (a, b) (a, b) = Some (a, b).
Proof. exact merge_idem. Qed.
Print Assumptions C13_merge_idem.

(* a successful merge is a valid span, contains both arguments, and is the least such pair *)
Theorem C13_merge_is_hull : forall (s : list byte) (a1 a2 b1 b2 m1 m2 : nat),
  valid_span s a1 a2 = true -> valid_span s b1 b2 = true ->
  SpanOps.merge_spans s (a1, a2) (b1, b2) = Some (m1, m2) ->
  valid_span s m1 m2 = true /\ m1 <= a1 /\ m1 <= b1 /\ a2 <= m2 /\ b2 <= m2 /\
  (forall c1 c2, c1 <= a1 -> c1 <= b1 -> a2 <= c2 -> b2 <= c2 -> c1 <= m1 /\ m2 <= c2).
Proof. exact merge_is_hull. Qed.
Print Assumptions C13_merge_is_hull.
