(* C15 -- traversal helpers enumerate exactly the tokens of the pair tree.
   Statements only; every proof is one `exact`, of a lemma or of a term over lemmas of Proofs/TraverseProofs.v and
   Proofs/TokenNesting.v.
   Model: Model/Traverse.v (loops of main/src/iterators.rs transcribed on explicit fuel; `None` = out of
   fuel).  `fuel_for t = 2 * size t + 2`.  The list returned by a loop is the sequence of calls of the
   callback `f` (token, usize).  All statements hold for EVERY token tree `t` (no well-formedness
   assumption on spans or rules). *)
From Coq Require Import List Arith Permutation.
From Coq Require Import Sorted.
From PT Require Import Model.Base Model.Texpr Model.Sem Model.Tok Model.Tokens Model.Traverse Proofs.TraverseProofs Proofs.TokenNesting.
Import ListNotations.

(* iterate_pre_order: with fuel >= 2*size+2 the stack-of-queues loop terminates and calls f exactly on
   preorder t 0 = (t,0) :: flat_map (fun c => preorder c 1) children ... (depth-first, with depth);
   one unit less is not enough (the step count is exact); every token of the tree is visited exactly
   once (the visited tokens ARE the list all_tokens t, whose length is size t). *)
Theorem C15_preorder : forall t fuel,
  fuel_for t <= fuel ->
  pre_order fuel t = Some (preorder t 0)
  /\ pre_order (fuel_for t - 1) t = None
  /\ map fst (preorder t 0) = all_tokens t
  /\ length (preorder t 0) = size t.
Proof.
  exact (fun t fuel Hf => conj (pre_order_correct t fuel Hf) (conj (pre_order_fuel_tight t)
                           (conj (preorder_fst t 0) (preorder_length t 0)))).
Qed.
Print Assumptions C15_preorder.

(* iterate_level_order: the two-queue loop terminates and calls f on level 0, then level 1, ... each
   left to right, the second argument being the number of tokens still queued on that level
   (`queue.len()` after the pop); the visited tokens are a permutation of all_tokens t (each exactly
   once; no duplicates if the tree has none), and level k is exactly the sub-sequence of the pre-order
   at depth k. *)
Theorem C15_levelorder : forall t fuel,
  fuel_for t <= fuel ->
  level_order fuel t = Some (concat (map with_remaining (levels t)))
  /\ map fst (concat (map with_remaining (levels t))) = concat (levels t)
  /\ Permutation (concat (levels t)) (all_tokens t)
  /\ length (concat (levels t)) = size t
  /\ (NoDup (all_tokens t) -> NoDup (concat (levels t)))
  /\ (forall k, level_at k t = map fst (filter (fun p => snd p =? k) (preorder t 0))).
Proof.
  exact (fun t fuel Hf =>
    conj (level_order_correct t fuel Hf) (conj (level_order_tokens t) (conj (levels_permutation t)
    (conj (eq_trans (Permutation_length (levels_permutation t)) (all_tokens_length t))
    (conj (Permutation_NoDup (Permutation_sym (levels_permutation t))) (levels_are_depth_classes t)))))).
Qed.
Print Assumptions C15_levelorder.

(* format_as_tree: one line per pre-order entry: 4*depth spaces, the rule, and the span whose text is
   printed iff the token has no children (line_of). *)
Theorem C15_render : forall t fuel,
  fuel_for t <= fuel ->
  render fuel t = Some (map line_of (preorder t 0)).
Proof. exact c15_render. Qed.
Print Assumptions C15_render.

(* to_thin / as_thin_token keep rule, start, end and shape: the defining equation, losslessness
   (of_thin is a left inverse) and equality of the (rule, start, end, depth) pre-order sequences;
   as_token / children are the token itself / its direct children in order. *)
Theorem C15_thin : forall t,
  (forall r s e cs, to_thin (Tok r s e cs) = Thin r s e (map to_thin cs))
  /\ as_thin_token t = to_thin t
  /\ of_thin (to_thin t) = t
  /\ thin_preorder (to_thin t) 0 = map tok_quad (preorder t 0)
  /\ as_token t = t
  /\ children_of t = tok_children t.
Proof.
  exact (fun t => conj to_thin_unfold (conj (as_thin_token_spec t) (conj (of_thin_to_thin t)
                  (conj (thin_preorder_to_thin t 0) (conj (as_token_id t) eq_refl))))).
Qed.
Print Assumptions C15_thin.

(* "All spans are nested in their parent and ordered among siblings" / "children() are the direct child tokens in input
   order" -- about the token tree of every parse result (Model/Tokens.v = what the Pair API exposes).
   [nested lo hi toks]: the tokens lie inside [lo, hi] in order (end_i <= start_(i+1)), each with start <= end, and recursively
   so for the children inside the token's own span.  Unconditional: every successful run of the real parse path, every
   expression, every environment (also the unrepaired variants), every input. *)
Theorem C15_nesting : forall E fuel inh e pos st p t st',
  tparse E fuel inh e pos st = Ok (p, t) st' -> nested pos p (tokens E t).
Proof. exact tokens_nested. Qed.
Print Assumptions C15_nesting.

Theorem C15_entry_nesting : forall E fuel r p t st',
  try_parse_partial E fuel r = Ok (p, t) st' -> nested (i_start (e_inp E)) p (tokens E t).
Proof. exact entry_tokens_nested. Qed.
Print Assumptions C15_entry_nesting.

(* a parsed non-silent rule is ONE token spanning exactly what it consumed, its children nested inside *)
Theorem C15_rule_token : forall E fuel inh r arg pos st p t st',
  r_emis (e_rules E r) <> EmExpr ->
  tparse E fuel inh (TRule r arg) pos st = Ok (p, t) st' ->
  exists cs, tokens E t = [Tok r pos p cs] /\ nested pos p cs /\
    (cs = [] \/ exists c sp, t = NRule r (Some c) sp /\ cs = tokens E c /\ has_children E r = true).
Proof. exact rule_token_children_nested. Qed.
Print Assumptions C15_rule_token.

(* siblings are in input order and disjoint; every token of the tree (pre-order enumeration of Model/Traverse.v) lies inside
   the parsed range, its children inside it and sorted *)
Theorem C15_siblings_ordered : forall E fuel inh e pos st p t st',
  tparse E fuel inh e pos st = Ok (p, t) st' ->
  Sorted tok_before (tokens E t) /\
  (forall i a b, nth_error (tokens E t) i = Some a -> nth_error (tokens E t) (S i) = Some b -> tok_end a <= tok_start b) /\
  (forall i j a b, i < j -> nth_error (tokens E t) i = Some a -> nth_error (tokens E t) j = Some b -> tok_end a <= tok_start b) /\
  Forall (fun a => pos <= tok_start a /\ tok_start a <= tok_end a /\ tok_end a <= p) (tokens E t).
Proof. exact (fun E fuel inh e pos st p t st' H => nested_siblings _ _ _ (tokens_nested E fuel inh e pos st p t st' H)). Qed.
Print Assumptions C15_siblings_ordered.

Theorem C15_nested_everywhere : forall E fuel inh e pos st p t st',
  tparse E fuel inh e pos st = Ok (p, t) st' ->
  forall top d, In top (tokens E t) -> In d (all_tokens top) ->
    pos <= tok_start d /\ tok_start d <= tok_end d /\ tok_end d <= p /\
    Forall (fun c => tok_start d <= tok_start c /\ tok_start c <= tok_end c /\ tok_end c <= tok_end d) (tok_children d) /\
    StronglySorted tok_before (tok_children d).
Proof. exact (fun E fuel inh e pos st p t st' H => nested_everywhere _ _ _ (tokens_nested E fuel inh e pos st p t st' H)). Qed.
Print Assumptions C15_nested_everywhere.
