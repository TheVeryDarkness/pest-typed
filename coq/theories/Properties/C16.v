(* C16 -- generated getters (`emit_rule_reference`) return exactly the referenced sub-nodes that matched. Statements only.
   Model/Getter.v transcribes the getter forest of generator/src/graph.rs (Node / Edge / wrap / merge / flattenable /
   join / expand, attached while walking the optimized expression as optimized_rule.rs does): [getter e x] is the path the
   accessor `x()` of a rule with expression [e] follows through the rule's content, [eval_g] follows it through a typed
   tree, [gtype] is the Rust type it is emitted with.  V1g (vlib/getters.py) compares path and type with what the REAL
   generator emits for every rule x identifier of the corpus; the compiled accessors are run against the model (T2) and
   against the specification below (T3) by vlib/props/C16.py. *)
From Coq Require Import List NArith.
From PT Require Import Model.Texpr Model.Sem Model.Ast Model.Translate Model.GenEnv Model.Getter Model.GetterSpec.
From PT Require Import Proofs.GetterProofs Proofs.GetterProofs2 Proofs.GetterProofs3.
Import ListNotations.

(* The specification [direct_refs x t]: the x rule nodes stored in the tree t itself, in storage (= mention = input) order,
   not descending into other rules' contents and not into negative predicates (which store nothing).
   For every expression e, every rule x other than the EOI index, every tree t of the shape of e's translation: flattening
   what the accessor returns gives exactly those nodes -- the very nodes of t, in that order. *)
Theorem C16_getters_direct : forall eoi k e r g t,
  r <> eoi ->
  has_shape (Translate.tr eoi k e) t -> getter e (IdRule r) = Some g ->
  flatten_gval (eval_g g t) = direct_refs r t.
Proof. exact getters_direct. Qed.
Print Assumptions C16_getters_direct.

(* the EOI accessor, for expressions that do not call a rule that happens to have the EOI index *)
Theorem C16_getters_direct_eoi : forall eoi k e g t,
  mentions eoi e = false ->
  has_shape (Translate.tr eoi k e) t -> getter e (IdBuiltin BEoi) = Some g ->
  flatten_gval (eval_g g t) = direct_refs eoi t.
Proof. exact getters_direct_eoi. Qed.
Print Assumptions C16_getters_direct_eoi.

(* every identifier (built-in aliases and Unicode properties store library nodes that do not carry their name, so the
   specification follows the expression): the nodes stored at the positions where e mentions x, in the order of the
   mentions, negative predicates excluded *)
Theorem C16_getters_mention : forall eoi k e x g t,
  has_shape (Translate.tr eoi k e) t -> getter e x = Some g ->
  flatten_gval (eval_g g t) = mention_refs x e t.
Proof. exact getters_ident. Qed.
Print Assumptions C16_getters_mention.

(* `Option<Option<_>>` is never emitted: a node is flattened exactly when its type is an Option *)
Theorem C16_flattenable : forall g, flattenable g = is_option (gtype g).
Proof. exact flattenable_char. Qed.
Print Assumptions C16_flattenable.

(* one accessor per name: repeated mentions are merged into one tuple-valued accessor *)
Theorem C16_one_getter_per_name : forall e, NoDup (names (getter_of e)).
Proof. exact nodup_getter_of. Qed.
Print Assumptions C16_one_getter_per_name.

(* every tree the real parse path returns has the shape of the expression it was parsed with, so the theorems above hold
   of what the parser returns without the shape hypothesis *)
Theorem C16_tparse_has_shape : forall E fuel inh e pos st p t st',
  tparse E fuel inh e pos st = Ok (p, t) st' -> has_shape e t.
Proof. exact tparse_has_shape. Qed.
Print Assumptions C16_tparse_has_shape.

(* For every grammar g, every rule r0 with definition d for which accessors are emitted (rule_getters:
   every kind but atomic), every successful prefix parse of r0 on any input: the result is a rule node WITH content c,
   and the emitted accessor r0.x() (call_getter) applied to it yields, after flattening Option / Vec / tuples, exactly the
   x nodes stored directly in c (direct_refs: not those inside other rules' contents, none from negative predicates),
   in storage = mention order. *)
Theorem C16_getters : forall eoi g I pred fuel r0 d x gn p t st',
  r0 <> eoi -> lookup_rule (g_rules g) r0 = Some d ->
  try_parse_partial (env_of eoi g I pred) fuel r0 = Ok (p, t) st' ->
  lookup (IdRule x) (rule_getters d) = Some gn -> x <> eoi ->
  exists c sp, t = NRule r0 (Some c) sp /\
               has_shape (Translate.tr eoi (skip_of_kind (o_kind d)) (o_expr d)) c /\
               flatten_gval (call_getter gn t) = direct_refs x c.
Proof. exact try_parse_partial_call_getter. Qed.
Print Assumptions C16_getters.

(* ... for every rule node the parser builds anywhere in a tree, not only at the entry point *)
Theorem C16_getters_nested : forall eoi g I pred fuel inh arg pos st r0 d x gn p c sp st',
  r0 <> eoi -> lookup_rule (g_rules g) r0 = Some d ->
  tparse (env_of eoi g I pred) fuel inh (TRule r0 arg) pos st = Ok (p, NRule r0 (Some c) sp) st' ->
  getter (o_expr d) (IdRule x) = Some gn -> x <> eoi ->
  flatten_gval (eval_g gn c) = direct_refs x c.
Proof. exact parsed_rule_getters_direct. Qed.
Print Assumptions C16_getters_nested.

(* "wrapped in Option / Vec / tuple according to where x is mentioned": the emitted type is the declarative reading
   [spec_type] of the expression (Option under ? and under an alternative, Vec under a repetition, a tuple for several
   mentions; a getter exists exactly for the identifiers mentioned outside negative predicates), never contains
   Option<Option<_>>, and the accessor's value on a parsed tree has exactly that type (in particular the path never
   leaves the stored structure: no rejected expression) *)
Theorem C16_type : forall e x, option_map gtype (getter e x) = spec_type x e.
Proof. exact getter_type_spec. Qed.
Print Assumptions C16_type.

Theorem C16_getter_exists_iff : forall e x, getter e x = None <-> spec_type x e = None.
Proof. exact getter_none_iff. Qed.
Print Assumptions C16_getter_exists_iff.

Theorem C16_value_typed : forall eoi g I pred fuel inh arg pos st r0 d x gn p c sp st',
  r0 <> eoi -> lookup_rule (g_rules g) r0 = Some d ->
  tparse (env_of eoi g I pred) fuel inh (TRule r0 arg) pos st = Ok (p, NRule r0 (Some c) sp) st' ->
  getter (o_expr d) x = Some gn ->
  val_of_type (ref_ok eoi (skip_of_kind (o_kind d))) (eval_g gn c) (gtype gn) /\
  spec_type x (o_expr d) = Some (gtype gn) /\ no_nested_option (gtype gn).
Proof. exact parsed_rule_getter_typed. Qed.
Print Assumptions C16_value_typed.

(* non-vacuity: r = { (a ~ b)? ~ (a | b ~ a)* ~ &b ~ PUSH(b)? ~ (b | a)? } on "abababb": the types, and the values the
   two accessors return on the parser's own result *)
Theorem C16_example_types :
  option_map gtype (getter Example.xe Example.ra) =
    Some (TyTuple [TyOption (TyRef Example.ra); TyVec (TyTuple [TyOption (TyRef Example.ra); TyOption (TyRef Example.ra)]); TyOption (TyRef Example.ra)]) /\
  spec_type Example.ra Example.xe = option_map gtype (getter Example.xe Example.ra) /\
  option_map gtype (getter Example.xe Example.rb) =
    Some (TyTuple [TyOption (TyRef Example.rb); TyVec (TyOption (TyRef Example.rb)); TyRef Example.rb; TyOption (TyRef Example.rb); TyOption (TyRef Example.rb)]) /\
  spec_type Example.rb Example.xe = option_map gtype (getter Example.xe Example.rb) /\
  getter Example.xe (IdRule 3) = None /\ spec_type (IdRule 3) Example.xe = None.
Proof. exact Example.getter_types. Qed.
Print Assumptions C16_example_types.

(* Which slot holds which node.
   [spec_val x e t] (Model/GetterSpec.v) is the declarative STRUCTURED value of the accessor, by recursion on the expression
   only (it uses nothing of the getter forest: no wrap / merge / join / flattenable): an identifier equal to x is the stored
   node; `e?` is None when the stored option is None, else the inner value in an Option (unless it already is one); `e*` is the
   Vec of the iterations' values; a sequence is the tuple of the values of the elements mentioning x, one slot per such element,
   in order; a choice has one Option slot per alternative mentioning x: None unless that alternative was taken.
   For every rule with accessors and every successful prefix parse, the emitted accessor returns exactly that value. *)
Theorem C16_value_spec : forall eoi g I pred fuel r0 d x gn p t st',
  r0 <> eoi -> lookup_rule (g_rules g) r0 = Some d ->
  try_parse_partial (env_of eoi g I pred) fuel r0 = Ok (p, t) st' ->
  lookup x (rule_getters d) = Some gn ->
  exists c sp, t = NRule r0 (Some c) sp /\
               has_shape (Translate.tr eoi (skip_of_kind (o_kind d)) (o_expr d)) c /\
               spec_val x (o_expr d) c = Some (call_getter gn t).
Proof. exact try_parse_partial_call_getter_value. Qed.
Print Assumptions C16_value_spec.

(* the structured specification refines the flat one *)
Theorem C16_spec_val_flatten : forall eoi k e x t v,
  has_shape (Translate.tr eoi k e) t -> spec_val x e t = Some v -> flatten_gval v = mention_refs x e t.
Proof. exact spec_val_flatten. Qed.
Print Assumptions C16_spec_val_flatten.

(* r = { "a" ~ x | "b" ~ x ~ y } on "ax": the accessor x() is (Some(x@1..2), None); the value with the slots swapped has
   the same type and the same flattening, and is NOT the specified one (a seeded change of the generator did exactly that) *)
Theorem C16_slot_example :
  match try_parse_partial (SlotExample.cenv [97; 120]%N) 40 0, getter SlotExample.ce SlotExample.rx, getter SlotExample.ce SlotExample.ry with
  | Ok (p, NRule 0 (Some c) _) _, Some gx, Some gy =>
      p = 2 /\
      spec_val SlotExample.rx SlotExample.ce c = Some (VTuple [VOpt (Some (VRef (SlotExample.nx 1 2))); VOpt None]) /\
      spec_val SlotExample.rx SlotExample.ce c <> Some (VTuple [VOpt None; VOpt (Some (VRef (SlotExample.nx 1 2)))]) /\
      flatten_gval (VTuple [VOpt None; VOpt (Some (VRef (SlotExample.nx 1 2)))]) = mention_refs SlotExample.rx SlotExample.ce c /\
      spec_val SlotExample.rx SlotExample.ce c = Some (eval_g gx c) /\
      spec_val SlotExample.ry SlotExample.ce c = Some (VOpt None) /\
      spec_val SlotExample.ry SlotExample.ce c = Some (eval_g gy c) /\
      spec_val (IdRule 3) SlotExample.ce c = None
  | _, _, _ => False
  end.
Proof. exact SlotExample.slot_ax. Qed.
Print Assumptions C16_slot_example.
