(* C17 -- choice, sequence, repetition and leaf accessors reflect what was actually matched.
   Statements only; the proofs are lemmas of Proofs/AccessProofs.v on the reference interpreter [aparse], carried
   to the real parse path [tparse] by [tparse_ok_aparse] / [tparse_fail_aparse] (Proofs/Refine.v, C05); the
   accessor models are in Model/Access.v. *)
From Coq Require Import List NArith Arith Bool.
From PT Require Import Model.Base Model.Stack Model.Texpr Model.Sem Model.Aparse Model.Access.
From PT Require Import Proofs.StackInv Proofs.Refine Proofs.RepSpec Proofs.AccessProofs.
Import ListNotations.

(* (a) First match wins. For every list of alternatives (any arity), every alternative expression, cursor and
   stack: if the choice returns variant [i] of [ChoiceN] then N is the number of alternatives, alternative [i]
   (grammar order) matches at that cursor and stack with exactly that cursor / content / stack as result, and
   every earlier alternative fails there. *)
Theorem C17_first_match : forall E fuel inh es pos stk p n i t stk',
  aparse E (S fuel) inh (TChoice es) pos stk = AOk (p, NChoice n i t) stk' ->
  n = length es /\ i < length es /\
  exists e_i, nth_error es i = Some e_i /\
    aparse E fuel inh e_i pos stk = AOk (p, t) stk' /\
    (forall j e_j, j < i -> nth_error es j = Some e_j -> aparse E fuel inh e_j pos stk = AFail).
Proof. exact aparse_first_match. Qed.
Print Assumptions C17_first_match.

(* ... and nothing else can be returned: the value is always a variant of ChoiceN; the choice fails only when
   every alternative fails; and if alternative i matches after all earlier ones failed, variant i is returned *)
Theorem C17_choice_shape : forall E fuel inh es pos stk p t stk',
  aparse E (S fuel) inh (TChoice es) pos stk = AOk (p, t) stk' ->
  exists i t', t = NChoice (length es) i t' /\ i < length es.
Proof. exact aparse_choice_shape. Qed.
Print Assumptions C17_choice_shape.

Theorem C17_choice_fails : forall E fuel inh es pos stk,
  aparse E (S fuel) inh (TChoice es) pos stk = AFail ->
  forall j e_j, nth_error es j = Some e_j -> aparse E fuel inh e_j pos stk = AFail.
Proof. exact (fun E fuel inh es => a_choice_fail (aparse E fuel) inh (length es) es 0). Qed.
Print Assumptions C17_choice_fails.

Theorem C17_choice_complete : forall E fuel inh es pos stk i e p t stk',
  nth_error es i = Some e ->
  aparse E fuel inh e pos stk = AOk (p, t) stk' ->
  (forall j e_j, j < i -> nth_error es j = Some e_j -> aparse E fuel inh e_j pos stk = AFail) ->
  aparse E (S fuel) inh (TChoice es) pos stk = AOk (p, NChoice (length es) i t) stk'.
Proof. exact (fun E fuel inh es => a_choice_complete (aparse E fuel) inh (length es) es 0). Qed.
Print Assumptions C17_choice_complete.

(* the same for the real parse path (repaired code), through C05 *)
Theorem C17_first_match_impl : forall E, fixed E -> forall fuel inh es pos st gs p t st',
  SInv (stk st) gs ->
  aparse E (S fuel) inh (TChoice es) pos (cache (stk st)) <> APanic ->
  tparse E (S fuel) inh (TChoice es) pos st = Ok (p, t) st' ->
  exists i e_i t', t = NChoice (length es) i t' /\ i < length es /\ nth_error es i = Some e_i /\
    aparse E fuel inh e_i pos (cache (stk st)) = AOk (p, t') (cache (stk st')) /\
    (forall j e_j, j < i -> nth_error es j = Some e_j -> aparse E fuel inh e_j pos (cache (stk st)) = AFail).
Proof.
  exact (fun E HF fuel inh es pos st gs p t st' Hi Hn Ht =>
    aparse_choice_inv (proj1 (tparse_ok_aparse E HF _ _ _ _ _ gs p t st' Hi Hn Ht))).
Qed.
Print Assumptions C17_first_match_impl.

Theorem C17_choice_fails_impl : forall E, fixed E -> forall fuel inh es pos st gs st',
  SInv (stk st) gs ->
  aparse E (S fuel) inh (TChoice es) pos (cache (stk st)) <> APanic ->
  tparse E (S fuel) inh (TChoice es) pos st = Fail st' ->
  forall j e_j, nth_error es j = Some e_j -> aparse E fuel inh e_j pos (cache (stk st)) = AFail.
Proof.
  exact (fun E HF fuel inh es pos st gs st' Hi Hn Ht =>
    a_choice_fail (aparse E fuel) inh (length es) es 0 pos _ (proj1 (tparse_fail_aparse E HF _ _ _ _ _ gs st' Hi Hn Ht))).
Qed.
Print Assumptions C17_choice_fails_impl.

(* (b) `_k()` is Some exactly for k = i, and then it is the stored content *)
Theorem C17_accessor_unique : forall k n i t t',
  choice_acc k (NChoice n i t) = Some t' <-> k = i /\ t' = t.
Proof. exact accessor_unique. Qed.
Print Assumptions C17_accessor_unique.

Theorem C17_accessors_exactly_one : forall n i t, i < n ->
  forall k, k < n -> nth_error (choice_accs n (NChoice n i t)) k = Some (if k =? i then Some t else None).
Proof. exact accessors_exactly_one. Qed.
Print Assumptions C17_accessors_exactly_one.

(* (c) The helper chain `reference()/if_then/consume()/consume_if_then . else_if ... else_then` given n closures, and
   the `match_choices!` expansion given n arms, return what closure / arm i returns on the stored content and call
   no other closure ([i] is the whole call log) -- for every arity n >= 2, every variant i < n. *)
Theorem C17_chain : forall (L : Type) (d : tnode -> L) n i t (cls : list (tnode -> L)),
  2 <= n -> i < n -> length cls = n ->
  chain_run cls (NChoice n i t) = Some (nth i cls d t, [i]).
Proof. exact @chain_runs_exactly. Qed.
Print Assumptions C17_chain.

Theorem C17_match_choices : forall (L : Type) (d : tnode -> L) n i t (arms : list (tnode -> L)),
  2 <= n -> i < n -> length arms = n ->
  match_choices arms (NChoice n i t) = Some (nth i arms d t, [i]).
Proof. exact @match_choices_runs_exactly. Qed.
Print Assumptions C17_match_choices.

(* (a)+(b)+(c) on a value a choice really returned *)
Theorem C17_choice_accessors : forall (L : Type) (d : tnode -> L) E fuel inh es pos stk p t stk' (cls : list (tnode -> L)),
  2 <= length es -> length cls = length es ->
  aparse E (S fuel) inh (TChoice es) pos stk = AOk (p, t) stk' ->
  exists i t', t = NChoice (length es) i t' /\ i < length es /\
    chain_run cls t = Some (nth i cls d t', [i]) /\
    match_choices cls t = Some (nth i cls d t', [i]) /\
    (forall k, choice_acc k t = Some t' <-> k = i).
Proof. exact @chain_on_parsed. Qed.
Print Assumptions C17_choice_accessors.

(* (d) Sequences. [seq_items es first pos stk its pos' stk'] : the elements [es] matched one after the other from
   (pos, stk) to (pos', stk'), each preceded by the implicit skip (none before the first), each starting where the
   previous one stopped, [its] = their (skipped, matched) results in that order.  A parsed sequence stores exactly
   these, one per element, in grammar order; get_matched / as_ref / into_matched are the second components,
   get_all the pairs. *)
Theorem C17_seq : forall E fuel inh k es pos stk p t stk',
  aparse E (S fuel) inh (TSeq k es) pos stk = AOk (p, t) stk' ->
  exists its, t = NSeq its /\
    seq_items E (aparse E fuel) fuel (resolve k inh) inh es true pos stk its p stk' /\
    length its = length es /\
    seq_matched t = Some (map snd its) /\ seq_all t = Some its.
Proof. exact aparse_seq. Qed.
Print Assumptions C17_seq.

(* item j is the result of element j, run after the skip, from the state the j items before it left *)
Theorem C17_seq_nth : forall E A lf b inh es first pos stk its p stk',
  seq_items E A lf b inh es first pos stk its p stk' ->
  forall j e_j, nth_error es j = Some e_j ->
  exists pre first_j pos_j stk_j pos1 skipped stk1 pos2 t_j stk2,
    seq_items E A lf b inh (firstn j es) first pos stk pre pos_j stk_j /\ pre = firstn j its /\
    first_j = (if j =? 0 then first else false) /\
    a_pre_skip E A lf b (negb first_j) pos_j stk_j = AOk (pos1, skipped) stk1 /\
    A inh e_j pos1 stk1 = AOk (pos2, t_j) stk2 /\
    nth_error its j = Some (skipped, t_j).
Proof. exact seq_items_nth. Qed.
Print Assumptions C17_seq_nth.

Theorem C17_seq_impl : forall E, fixed E -> forall fuel inh k es pos st gs p t st',
  SInv (stk st) gs ->
  aparse E (S fuel) inh (TSeq k es) pos (cache (stk st)) <> APanic ->
  tparse E (S fuel) inh (TSeq k es) pos st = Ok (p, t) st' ->
  exists its, t = NSeq its /\
    seq_items E (aparse E fuel) fuel (resolve k inh) inh es true pos (cache (stk st)) its p (cache (stk st')) /\
    length its = length es /\
    seq_matched t = Some (map snd its) /\ seq_all t = Some its.
Proof.
  exact (fun E HF fuel inh k es pos st gs p t st' Hi Hn Ht =>
    aparse_seq E fuel inh k es pos _ p t _ (proj1 (tparse_ok_aparse E HF _ _ _ _ _ gs p t st' Hi Hn Ht))).
Qed.
Print Assumptions C17_seq_impl.

(* (e) Repetitions: the stored items are the consecutive units 0, 1, 2, ... (C19's [units]: unit 0 = the element,
   unit j > 0 = skip then the element, each from the state the previous one left) in input order; iter_matched /
   into_iter_matched are the second components, iter_all the pairs; item j is the result of unit j. *)
Theorem C17_rep : forall E fuel inh k mn mx e pos stk p t stk',
  aparse E (S fuel) inh (TRep k mn mx e) pos stk = AOk (p, t) stk' ->
  exists its, t = NRep (bounded mx) its /\
    units E (aparse E fuel) fuel (resolve k inh) inh e 0 pos stk its p stk' /\
    rep_matched t = Some (map snd its) /\ rep_all t = Some its /\
    (forall j it, nth_error its j = Some it ->
       exists pos_j stk_j pos_j' stk_j',
         units E (aparse E fuel) fuel (resolve k inh) inh e 0 pos stk (firstn j its) pos_j stk_j /\
         a_unit E (aparse E fuel) fuel (resolve k inh) inh e j pos_j stk_j = AOk (pos_j', it) stk_j').
Proof. exact aparse_rep_access. Qed.
Print Assumptions C17_rep.

Theorem C17_rep_impl : forall E, fixed E -> forall fuel inh k mn mx e pos st gs p t st',
  SInv (stk st) gs ->
  aparse E (S fuel) inh (TRep k mn mx e) pos (cache (stk st)) <> APanic ->
  tparse E (S fuel) inh (TRep k mn mx e) pos st = Ok (p, t) st' ->
  exists its, t = NRep (bounded mx) its /\
    units E (aparse E fuel) fuel (resolve k inh) inh e 0 pos (cache (stk st)) its p (cache (stk st')) /\
    rep_matched t = Some (map snd its) /\ rep_all t = Some its.
Proof. exact tparse_rep_access. Qed.
Print Assumptions C17_rep_impl.

(* (f) Leaves. [consumed I pos p] = the input text between the two cursors; [leaf_text] = what the node's public
   field shows.  CharRange / ANY / unicode property ([char_leaf_spec]): the stored char is the char decoded at
   the cursor, satisfies the node's predicate, the cursor moves by its encoded length.  Insens: content is the span
   (old cursor, new cursor), i.e. the actual spelling, equal to the pattern up to ASCII case.  NEWLINE: the consumed
   text is the spelling of the stored kind (and CR is stored only if "\r\n" was not there).  PEEK / Skip / SkipChar:
   span = (old cursor, new cursor).  POP: the stored (popped) span has the same text as the text consumed. *)
Theorem C17_leaf_text : forall E n inh pos stk p t stk',
  let I := e_inp E in
  (aparse E (S n) inh TAny pos stk = AOk (p, t) stk' ->
     char_leaf_spec E (fun _ => true) CkAny pos stk p t stk') /\
  (forall lo hi, aparse E (S n) inh (TRange lo hi) pos stk = AOk (p, t) stk' ->
     char_leaf_spec E (fun c => (lo <=? c)%N && (c <=? hi)%N) CkRange pos stk p t stk') /\
  (forall q, aparse E (S n) inh (TCharBy q) pos stk = AOk (p, t) stk' ->
     char_leaf_spec E (e_pred E q) (CkProp q) pos stk p t stk') /\
  (forall s, aparse E (S n) inh (TInsens s) pos stk = AOk (p, t) stk' ->
     exists txt, t = NInsens pos p /\ stk' = stk /\ p = pos + length s /\
       leaf_text (parent I) t = XText pos p (MOk txt) /\
       consumed I pos p = MOk txt /\ eq_ignore_case txt s = true) /\
  (aparse E (S n) inh TNewline pos stk = AOk (p, t) stk' ->
     exists k, t = NNewline k /\ stk' = stk /\ leaf_text (parent I) t = XKind k /\
       consumed I pos p = MOk (nl_text k) /\ p = pos + length (nl_text k) /\
       (k = NlCR -> consumed I pos (pos + 2) <> MOk (nl_text NlCRLF))) /\
  (aparse E (S n) inh TPeek pos stk = AOk (p, t) stk' ->
     exists sp rest_stk txt, t = NSpanned KPeek pos p /\ stk = sp :: rest_stk /\ stk' = stk /\
       span_str I sp = MOk txt /\ consumed I pos p = MOk txt /\
       leaf_text (parent I) t = XText pos p (slice_checked (parent I) pos p)) /\
  (aparse E (S n) inh TPop pos stk = AOk (p, t) stk' ->
     exists sp txt, t = NSpanned KPop (fst sp) (snd sp) /\ stk = sp :: stk' /\
       leaf_text (parent I) t = XText (fst sp) (snd sp) (MOk txt) /\
       consumed I pos p = MOk txt /\ p = pos + length txt) /\
  (forall ss, aparse E (S n) inh (TSkipUntil ss) pos stk = AOk (p, t) stk' ->
     t = NSpanned KSkip pos p /\ stk' = stk /\ pos <= p /\
     (exists found, i_skip_until I true ss pos = (found, p)) /\
     leaf_text (parent I) t = XText pos p (slice_checked (parent I) pos p)) /\
  (forall k, aparse E (S n) inh (TSkipChars k) pos stk = AOk (p, t) stk' ->
     t = NSpanned KSkipChar pos p /\ stk' = stk /\ pos <= p /\
     i_skip I k pos = MOk (Some p) /\
     leaf_text (parent I) t = XText pos p (slice_checked (parent I) pos p)).
Proof.
  exact (fun E n inh pos stk p t stk' =>
    conj (char_leaf E (fun _ => true) CkAny pos stk p t stk')
   (conj (fun lo hi => leaf_range E n inh lo hi pos stk p t stk')
   (conj (fun q => char_leaf E (e_pred E q) (CkProp q) pos stk p t stk')
   (conj (fun s => leaf_insens E n inh s pos stk p t stk')
   (conj (leaf_newline E n inh pos stk p t stk')
   (conj (leaf_peek E n inh pos stk p t stk')
   (conj (leaf_pop E n inh pos stk p t stk')
   (conj (fun ss => leaf_skip_until E n inh ss pos stk p t stk')
         (fun k => leaf_skip_chars E n inh k pos stk p t stk'))))))))).
Qed.
Print Assumptions C17_leaf_text.

(* the definition used above, spelled out *)
Theorem C17_char_leaf_spec_unfold : forall E pred kind pos stk p t stk',
  char_leaf_spec E pred kind pos stk p t stk' <->
  exists c rest l, t = NChar kind c /\ stk' = stk /\
    i_get (e_inp E) pos = MOk rest /\ dec1 rest = Some (c, l) /\ p = pos + l /\ pred c = true /\
    i_match_char (e_inp E) pred pos = MOk (Some (p, c)) /\
    leaf_text (parent (e_inp E)) t = XChar c.
Proof. exact (fun E pred kind pos stk p t stk' => iff_refl _). Qed.
Print Assumptions C17_char_leaf_spec_unfold.

Theorem C17_newline_kind_determined : forall k1 k2, nl_text k1 = nl_text k2 -> k1 = k2.
Proof. exact nl_text_inj. Qed.
Print Assumptions C17_newline_kind_determined.

(* a successful run of the real parse path (repaired code) returns the value of the reference run (C05), so every
   statement about leaves above holds of the nodes the real parser stores *)
Theorem C17_leaf_impl : forall E, fixed E -> forall n inh e pos st gs p t st',
  SInv (stk st) gs ->
  aparse E n inh e pos (cache (stk st)) <> APanic ->
  tparse E n inh e pos st = Ok (p, t) st' ->
  aparse E n inh e pos (cache (stk st)) = AOk (p, t) (cache (stk st')).
Proof. exact (fun E HF n inh e pos st gs p t st' Hi Hn Ht => proj1 (tparse_ok_aparse E HF n inh e pos st gs p t st' Hi Hn Ht)). Qed.
Print Assumptions C17_leaf_impl.
