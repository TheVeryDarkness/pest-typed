(* C18: parse results are values: `==`, `Hash`, `{:?}` and `clone()` agree (Model/EqHash.v).
   The theorems hold for ALL pairs of tnodes over one input object [i], hence for every two values of one
   Rust type obtained from one input object, through whatever sub-ranges.
   Determinism / statelessness ("a second parse gives the same value", "no entry point keeps state") is
   trivially true of the model (Gallina functions) and therefore NOT claimed here: it is checked on the
   code by vlib/props/C18.py (second parse, clone, three case orders in one process, fresh processes). *)
From PT Require Import Model.Base Model.Texpr Model.Sem Model.EqHash Proofs.EqHashProofs.

Theorem C18_eq_debug : forall (i : list byte) (t1 t2 : tnode),
  eq_m i t1 t2 = true <-> debug_m i t1 = debug_m i t2.
Proof. exact eq_debug_iff. Qed.
Print Assumptions C18_eq_debug.

Theorem C18_ne_debug : forall (i : list byte) (t1 t2 : tnode),
  eq_m i t1 t2 = false <-> debug_m i t1 <> debug_m i t2.
Proof. exact ne_debug_iff. Qed.
Print Assumptions C18_ne_debug.

Theorem C18_eq_hash : forall (i : list byte) (t1 t2 : tnode),
  eq_m i t1 t2 = true -> hash_m i t1 = hash_m i t2.
Proof. exact eq_hash. Qed.
Print Assumptions C18_eq_hash.

Theorem C18_refl : forall (i : list byte) (t : tnode), eq_m i t t = true.
Proof. exact eq_refl_m. Qed.
Print Assumptions C18_refl.

Theorem C18_sym : forall (i : list byte) (t1 t2 : tnode), eq_m i t1 t2 = eq_m i t2 t1.
Proof. exact eq_sym_m. Qed.
Print Assumptions C18_sym.

Theorem C18_trans : forall (i : list byte) (t1 t2 t3 : tnode),
  eq_m i t1 t2 = true -> eq_m i t2 t3 = true -> eq_m i t1 t3 = true.
Proof. exact eq_trans_m. Qed.
Print Assumptions C18_trans.

(* the two theorems read on two parse results over one input object; the premises only say which values are meant,
   the proof does not use them *)
Theorem C18_parse_results :
  forall (E1 E2 : env) (fuel1 fuel2 : nat) (inh1 inh2 : bool) (e : texpr) (pos1 pos2 : nat) (st1 st2 : state)
         (p1 p2 : nat) (t1 t2 : tnode) (s1 s2 : state),
  parent (e_inp E1) = parent (e_inp E2) ->
  tparse E1 fuel1 inh1 e pos1 st1 = Ok (p1, t1) s1 ->
  tparse E2 fuel2 inh2 e pos2 st2 = Ok (p2, t2) s2 ->
  (eq_m (parent (e_inp E1)) t1 t2 = true <-> debug_m (parent (e_inp E1)) t1 = debug_m (parent (e_inp E1)) t2) /\
  (eq_m (parent (e_inp E1)) t1 t2 = true -> hash_m (parent (e_inp E1)) t1 = hash_m (parent (e_inp E1)) t2).
Proof. exact (fun _ _ _ _ _ _ _ _ _ _ _ _ _ _ _ _ _ _ _ _ => conj (eq_debug_iff _ _ _) (eq_hash _ _ _)). Qed.
Print Assumptions C18_parse_results.
