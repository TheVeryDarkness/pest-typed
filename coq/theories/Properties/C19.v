(* C19 -- counted repetition and the raw combinators obey their stated bounds.
   Statements only; the lemmas are in Proofs/RepSpec.v and RawCombinators.v (on the reference interpreter and,
   through the refinement theorem of C05, on the real parse path) and in SkipNProofs.v (explicit skip counts).
   Parse/check agreement of the main model is C03. *)
From Coq Require Import List NArith Arith.
From PT Require Import Model.Base Model.Stack Model.Texpr Model.Sem Model.Aparse Model.LinesSpec.
From PT Require Import Proofs.StackInv Proofs.Refine Proofs.RepSpec Proofs.BoundaryOps Proofs.RawCombinators.
Import ListNotations.

(* A bounded repetition, for every element expression, bounds, skip setting, input and stack:
   [units] = consecutive successful units from index 0 (unit 0 = the element, unit i>0 = skip-if-on then
   the element), each starting where the previous one stopped; [stopped] = the next unit fails or MAX is
   reached.  Success returns exactly those units: greedy, MIN <= count <= MAX, cursor and stack are those
   after the last matched unit (so a skip not followed by a matched iteration is not consumed).
   Failure happens only with fewer than MIN matched units. *)
Theorem C19_rep_bounds : forall E fuel inh k mn mx e pos stk,
  let b := resolve k inh in
  match aparse E (S fuel) inh (TRep k mn mx e) pos stk with
  | AOk (pos', t) stk' =>
      exists its, t = NRep (bounded mx) its /\
                  units E (aparse E fuel) fuel b inh e 0 pos stk its pos' stk' /\
                  mn <= length its /\
                  (forall m, mx = Some m -> length its <= m) /\
                  stopped E (aparse E fuel) fuel b inh e mx (length its) pos' stk'
  | AFail =>
      exists its pos' stk', units E (aparse E fuel) fuel b inh e 0 pos stk its pos' stk' /\
                  length its < mn /\
                  stopped E (aparse E fuel) fuel b inh e mx (length its) pos' stk'
  | _ => True
  end.
Proof. exact aparse_rep_bounds. Qed.
Print Assumptions C19_rep_bounds.

(* the same for the real parse path (repaired code), through C05 *)
Theorem C19_rep_bounds_impl : forall E, fixed E -> forall fuel inh k mn mx e pos st gs p t st',
  SInv (stk st) gs ->
  aparse E (S fuel) inh (TRep k mn mx e) pos (cache (stk st)) <> APanic ->
  tparse E (S fuel) inh (TRep k mn mx e) pos st = Ok (p, t) st' ->
  exists its, t = NRep (bounded mx) its /\ mn <= length its /\ (forall m, mx = Some m -> length its <= m) /\
    units E (aparse E fuel) fuel (resolve k inh) inh e 0 pos (cache (stk st)) its p (cache (stk st')) /\
    stopped E (aparse E fuel) fuel (resolve k inh) inh e mx (length its) p (cache (stk st')).
Proof. exact tparse_rep_bounds. Qed.
Print Assumptions C19_rep_bounds_impl.

Theorem C19_rep_fails_impl : forall E, fixed E -> forall fuel inh k mn mx e pos st gs st',
  SInv (stk st) gs ->
  aparse E (S fuel) inh (TRep k mn mx e) pos (cache (stk st)) <> APanic ->
  tparse E (S fuel) inh (TRep k mn mx e) pos st = Fail st' ->
  exists its p' s', units E (aparse E fuel) fuel (resolve k inh) inh e 0 pos (cache (stk st)) its p' s' /\
    length its < mn /\ stopped E (aparse E fuel) fuel (resolve k inh) inh e mx (length its) p' s'.
Proof. exact tparse_rep_fails. Qed.
Print Assumptions C19_rep_fails_impl.

(* fixed arrays: exactly n consecutive matches, nothing skipped in between; fail at the first miss *)
Theorem C19_array : forall E fuel inh n e pos stk,
  match aparse E (S fuel) inh (TArr n e) pos stk with
  | AOk (pos', t) stk' => exists ts, t = NArr ts /\ length ts = n /\ chain (aparse E fuel) inh e n pos stk ts pos' stk'
  | AFail => exists k ts pos' stk', k < n /\ chain (aparse E fuel) inh e k pos stk ts pos' stk' /\
                                    aparse E fuel inh e pos' stk' = AFail
  | _ => True
  end.
Proof. exact aparse_arr. Qed.
Print Assumptions C19_array.

(* (T1, T2): first then second, nothing skipped in between; fails iff one of them fails *)
Theorem C19_pair : forall E fuel inh a b pos stk,
  match aparse E (S fuel) inh (TPair a b) pos stk with
  | AOk (pos', t) stk' => exists p1 ta s1 tb, t = NPair ta tb /\
        aparse E fuel inh a pos stk = AOk (p1, ta) s1 /\ aparse E fuel inh b p1 s1 = AOk (pos', tb) stk'
  | AFail => aparse E fuel inh a pos stk = AFail \/
      exists p1 ta s1, aparse E fuel inh a pos stk = AOk (p1, ta) s1 /\ aparse E fuel inh b p1 s1 = AFail
  | APanic => aparse E fuel inh a pos stk = APanic \/
      exists p1 ta s1, aparse E fuel inh a pos stk = AOk (p1, ta) s1 /\ aparse E fuel inh b p1 s1 = APanic
  | AFuel => aparse E fuel inh a pos stk = AFuel \/
      exists p1 ta s1, aparse E fuel inh a pos stk = AOk (p1, ta) s1 /\ aparse E fuel inh b p1 s1 = AFuel
  end.
Proof. exact aparse_pair_spec. Qed.
Print Assumptions C19_pair.

(* Option<T>: never fails; Some exactly when the operand matches; otherwise None with position and stack untouched *)
Theorem C19_opt : forall E fuel inh e pos stk,
  match aparse E (S fuel) inh (TOpt e) pos stk with
  | AOk (pos', t) stk' =>
      (exists t1, t = NOpt (Some t1) /\ aparse E fuel inh e pos stk = AOk (pos', t1) stk') \/
      (t = NOpt None /\ pos' = pos /\ stk' = stk /\ aparse E fuel inh e pos stk = AFail)
  | AFail => False
  | APanic => aparse E fuel inh e pos stk = APanic
  | AFuel => aparse E fuel inh e pos stk = AFuel
  end.
Proof. exact aparse_opt_spec. Qed.
Print Assumptions C19_opt.

(* SkipChar<N> on the REAL parse and check paths, for valid UTF-8: succeeds iff at least N characters remain, and then
   consumes exactly the first N characters (their encoded length); otherwise fails consuming nothing *)
Theorem C19_skip_chars : forall E fuel inh n pos st,
  good_inp (e_inp E) -> good_cur (e_inp E) pos ->
  exists m, valid_str m /\ i_get (e_inp E) pos = MOk (encode m) /\
    tparse E (S fuel) inh (TSkipChars n) pos st =
      (if n <=? length m then Ok (pos + length (encode (firstn n m)), NSpanned KSkipChar pos (pos + length (encode (firstn n m)))) st else Fail st) /\
    tcheck E (S fuel) inh (TSkipChars n) pos st =
      (if n <=? length m then Ok (pos + length (encode (firstn n m))) st else Fail st).
Proof. exact tparse_skip_chars_utf8. Qed.
Print Assumptions C19_skip_chars.

(* AtomicRepeat (the skip repetition): never fails; the greedy run of consecutive matches, nothing skipped in between,
   ending where the next attempt fails *)
Theorem C19_atomic_rep : forall E fuel inh e pos stk,
  match aparse E (S fuel) inh (TAtomicRep e) pos stk with
  | AOk (pos', t) stk' => exists ts, t = NAtomicRep ts /\ length ts < fuel /\
        chain (aparse E fuel) inh e (length ts) pos stk ts pos' stk' /\ aparse E fuel inh e pos' stk' = AFail
  | AFail => False
  | APanic => exists ts p s, length ts < fuel /\ chain (aparse E fuel) inh e (length ts) pos stk ts p s /\ aparse E fuel inh e p s = APanic
  | AFuel => exists ts p s, chain (aparse E fuel) inh e (length ts) pos stk ts p s /\
        (length ts = fuel \/ (length ts < fuel /\ aparse E fuel inh e p s = AFuel))
  end.
Proof. exact aparse_atomic_rep_spec. Qed.
Print Assumptions C19_atomic_rep.

(* ... and it records nothing with the tracker ("without tracking"), on the real path, for every environment *)
Theorem C19_atomic_rep_silent : forall E fuel inh e pos st,
  match tparse E fuel inh (TAtomicRep e) pos st with Ok _ st' => tr st' = tr st | Fail _ => False | _ => True end.
Proof. exact tparse_atomic_rep_silent. Qed.
Print Assumptions C19_atomic_rep_silent.

(* transfer of any such characterisation to the real parse path (repaired code), through C05 *)
Theorem C19_real_path : forall E, fixed E -> forall fuel inh e pos st gs p t st', SInv (stk st) gs ->
  aparse E fuel inh e pos (cache (stk st)) <> APanic -> tparse E fuel inh e pos st = Ok (p, t) st' ->
  aparse E fuel inh e pos (cache (stk st)) = AOk (p, t) (cache (stk st')) /\ SInv (stk st') gs.
Proof. exact tparse_ok_aparse. Qed.
Print Assumptions C19_real_path.

(* the finding repaired by "fix: RepeatMinMax enforces MIN when the loop ends by reaching MAX" *)
Theorem C19_refuted_before_fix :
  match tparse (w19_env false) 10 true (TRep SkOff 1 (Some 0) (TStr [120%N])) 0 st0 with
  | Ok (_, NRep _ its) _ => length its = 0
  | _ => False
  end.
Proof. exact unrepaired_ignores_min. Qed.
Print Assumptions C19_refuted_before_fix.

From PT Require Import Model.SkipN Proofs.SkipNProofs.

(* Explicit skip counts: Model/SkipN.v, the repetition / sequence combinators with `[Skip; SKIP]` for ANY count and ANY
   never-failing skip node (the main model's skip argument is off / on / inherited = what the generator emits).  [sparse] and
   [scheck] transcribe the parse path and the check path separately; [smatch] / [sfails] = "some fuel gives this result"
   (well defined: SkipNProofs.sparse_mono, smatch_fun); [units_from] = the chain of units: the first element without skips, every
   further element preceded by exactly k consecutive never-failing skip matches *)

(* parse and check agree, for every node and every skip count *)
Theorem C19_skipn_check_is_parse : forall f s n pos, scheck f s n pos = pos_of (sparse f s n pos).
Proof. exact check_is_parse. Qed.
Print Assumptions C19_skipn_check_is_parse.

(* the never-failing entry points (`NeverFailedTypedNode::parse_with` / `check_with`: Empty, RepeatMin<_, 0>, RepeatMinMax<_, 0, MAX>,
   any skip count, any skip node) are the fallible ones -- same offset, same value -- and never fail; their check half is the offset
   of their parse half.  Tie: harness/unitskip `nf` mode (these entry points on every MIN = 0 type with SKIP in 0..3). *)
Theorem C19_skipn_never_failing_entry : forall f s n pos, skip_shape n = true ->
  sparse_nf f s n pos = sparse f s n pos /\ scheck_nf f s n pos = scheck f s n pos /\
  sparse_nf f s n pos <> SFailed /\ scheck_nf f s n pos <> SFailed /\
  scheck_nf f s n pos = pos_of (sparse_nf f s n pos).
Proof. exact nf_entry_points. Qed.
Print Assumptions C19_skipn_never_failing_entry.

Theorem C19_skipn_cursor : forall f s n pos p v,
  pos <= length s -> sparse f s n pos = SOk (p, v) -> pos <= p <= length s.
Proof. exact cursor_monotone. Qed.
Print Assumptions C19_skipn_cursor.

(* between MIN and MAX elements; every element carries exactly k skipped values, the first one the defaults (nothing is skipped
   in front of the first element) *)
Theorem C19_skipn_rep_bounds : forall f s el skip k mn mx pos p items,
  wf_snode (SRep el skip k mn mx) = true ->
  sparse f s (SRep el skip k mn mx) pos = SOk (p, VRep items) ->
  mn <= length items /\ (forall m, mx = Some m -> length items <= m) /\
  Forall (fun it => length (fst it) = k) items /\
  (forall it its, items = it :: its -> fst it = repeat (default_val skip) k).
Proof. exact rep_bounds. Qed.
Print Assumptions C19_skipn_rep_bounds.

(* greedy, stops at MAX, never keeps a skip that is not followed by a matched element: the result is exactly the chain of units
   that ends because MAX is reached or because the NEXT unit (k skips, then the element) fails at its element -- and the cursor is
   where the last matched element ended *)
Theorem C19_skipn_rep_match_iff : forall s el skip k mn mx pos p items, wf_snode (SRep el skip k mn mx) = true ->
  (smatch s (SRep el skip k mn mx) pos p (VRep items) <->
   units_from (smatch s) (smatch_nf s) skip k el 0 pos items p /\ mn <= length items /\
   (forall m, mx = Some m -> length items <= m) /\
   (mx = Some (length items) \/ unit_fails (smatch_nf s) (sfails s) skip k el (length items) p)).
Proof. exact rep_match_iff. Qed.
Print Assumptions C19_skipn_rep_match_iff.

(* fails exactly when fewer than MIN units match *)
Theorem C19_skipn_rep_fails_iff : forall s el skip k mn mx pos, wf_snode (SRep el skip k mn mx) = true ->
  (sfails s (SRep el skip k mn mx) pos <->
   exists items p, units_from (smatch s) (smatch_nf s) skip k el 0 pos items p /\ length items < mn /\
     (forall m, mx = Some m -> length items <= m) /\
     (mx = Some (length items) \/ unit_fails (smatch_nf s) (sfails s) skip k el (length items) p)).
Proof. exact rep_fails_iff. Qed.
Print Assumptions C19_skipn_rep_fails_iff.

(* sequences: exactly the concatenation they denote, k skips in front of every element but the first *)
Theorem C19_skipn_seq_match_iff : forall s els skip k pos p v,
  smatch s (SSeq els skip k) pos p v <->
  exists items, v = VSeq items /\ seq_from (smatch s) (smatch_nf s) skip k 0 els pos items p.
Proof. exact seq_match_iff. Qed.
Print Assumptions C19_skipn_seq_match_iff.

Theorem C19_skipn_seq_fails_iff : forall s els skip k pos, wf_snode (SSeq els skip k) = true ->
  (sfails s (SSeq els skip k) pos <-> seq_fails (smatch s) (smatch_nf s) (sfails s) skip k 0 els pos).
Proof. exact seq_fails_iff. Qed.
Print Assumptions C19_skipn_seq_fails_iff.

(* non-vacuity ("a  a a" with skip = " "?, SKIP = 2: three elements, offset 6, on both paths), and the seeded variant that matches
   the skip once instead of k times is NOT the parse path *)
Theorem C19_skipn_example :
  scheck_once 50 in_a__a_a (SRep a_ blank 2 0 None) 0 = SOk 1 /\
  scheck 50 in_a__a_a (SRep a_ blank 2 0 None) 0 = SOk 6 /\ pos_of (sparse 50 in_a__a_a (SRep a_ blank 2 0 None) 0) = SOk 6.
Proof. exact once_differs. Qed.
Print Assumptions C19_skipn_example.
