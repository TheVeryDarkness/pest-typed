(* C20 -- generation options change representation only, and generation is deterministic. Statements only.
   In the generator model the parsing-relevant output (Model/Translate.v: rule kinds, emissions, type expressions,
   skip type) is a function of the grammar AST alone: the options box_only_if_needed, emit_rule_reference,
   emit_tagged_node_reference, do_not_emit_span, no_warnings are not arguments of translate_opt at all; that the
   REAL generator's parsing-relevant output is the same under every option set is checked by V1 per option set
   (vlib/props/C20.py). Boxing: the theorems below, proved in Proofs/BoxingProofs.v. *)
From Coq Require Import List NArith.
From PT Require Import Model.Base Model.Stack Model.Texpr Model.Sem Model.Translate Model.PegSpec Model.GenEnv.
From PT Require Import Model.Boxing Proofs.OptionsProofs Proofs.BoxingProofs.
Import ListNotations.

(* pest_optimizer: where the un-optimized expression is the optimized one read back (the optimizer only added
   RestoreOnErr, none of it directly on a Seq / Choice spine), both paths emit the same type *)
Theorem C20_opt_raw_partial : forall eoi k e,
  no_restore_on_spine e = true -> rtr eoi k (raw_of e) = tr eoi k e.
Proof. exact raw_same_when_unchanged. Qed.
Print Assumptions C20_opt_raw_partial.

(* known finding F6 (class optimizer_rewrote_rule): e = { "x"+ } with WHITESPACE on "x  y" *)
Theorem C20_refuted_skip :
  (match tparse (env_of 0 g_opt (inp_of_str in_f6) nopred) 30 true (TRule 1 SkOn) 0 st0 with
   | Ok (p, _) _ => p = 3 | _ => False end) /\
  (match tparse (env_of_raw 0 g_raw (inp_of_str in_f6) nopred) 30 true (TRule 1 SkOn) 0 st0 with
   | Ok (p, _) _ => p = 1 | _ => False end) /\
  (match peg_entry (penv_of 0 g_opt (inp_of_str in_f6) nopred) 30 1 with
   | POk p _ _ => p = 3 | _ => False end).
Proof. exact optimizer_changes_offset. Qed.
Print Assumptions C20_refuted_skip.

(* box_only_if_needed: "recursive grammars still compile when boxing is reduced".
   Model/Boxing.v transcribes collect_reachability / not_boxed (generator/src/graph.rs) and collect_used_rule;
   V1 compares its flags with the `boxed` argument of every rule! the REAL generator emits (vlib/props/C20.py).
   A struct type is finite iff no cycle of "stores inline" runs through unboxed rule structs only. *)

(* soundness, for every rule list: no cycle of the mention graph runs through unboxed rules only -- in
   particular the cap of `rules.len()` rounds never stops the analysis too early *)
Theorem C20_boxing_sound : forall ws cm rules x l,
  (forall z, In z (x :: l) -> is_boxed true ws cm rules z = false) ->
  ~ chain (mention_edge ws cm rules) x l x.
Proof. exact boxing_sound. Qed.
Print Assumptions C20_boxing_sound.

(* a rule on no cycle of the full mention graph is never boxed (the option does reduce boxing) *)
Theorem C20_boxing_minimal : forall ws cm rules r,
  In r rules ->
  (forall l, ~ chain (mention_edge ws cm rules) (b_name r) l (b_name r)) ->
  is_boxed true ws cm rules (b_name r) = false.
Proof. exact boxing_minimal. Qed.
Print Assumptions C20_boxing_minimal.

(* what every remaining entry of the reachability map holds *)
Theorem C20_boxing_invariant : forall ws cm rules x s,
  mlookup x (collect_reachability ws cm rules) = Some s ->
  In x (map b_name rules) /\ NoDup s /\ ~ In x s /\
  (forall y, In y s -> exists l, chain (mention_edge ws cm rules) x l y) /\
  (forall l y, chain (mention_edge ws cm rules) x l y ->
     (forall z, In z l -> In z (not_boxed ws cm rules)) -> In y s).
Proof. exact boxing_invariant. Qed.
Print Assumptions C20_boxing_invariant.

(* without the option every rule is boxed *)
Theorem C20_boxing_off : forall ws cm rules, boxed_flags false ws cm rules = map (fun _ => true) rules.
Proof. exact boxing_off. Qed.
Print Assumptions C20_boxing_off.

(* non-vacuity: the generator's own unit-test graph (a -> b -> c -> a): b stays unboxed, the cycle exists *)
Theorem C20_boxing_example :
  boxed_flags true None None inter_reference_rules = [true; false; true] /\
  boxed_flags false None None inter_reference_rules = [true; true; true] /\
  last_round_made_no_update None None inter_reference_rules = true.
Proof. exact inter_reference_flags. Qed.
Print Assumptions C20_boxing_example.

From PT Require Import Model.LinesSpec Proofs.BoundaryOps Proofs.SkipRewrite.

(* pest_optimizer: the skip-until node the optimizer introduces ("skipper": (!(t1 | t2 ..) ~ ANY)*  ==>  Skip([t1; t2; ..]), inside
   atomic rules) against the expression it replaces, on the REAL parse and check path: same offset, same logical stack, neither fails
   or panics; the offset is the first character boundary at which a terminator matches within the input range, else the end of the
   range.  Premises: the repaired skip_until (fix F3: [e_su_cut], necessary -- SkipRewrite.ex2_uncut_refuted), valid UTF-8 input and a
   cursor on a character boundary (necessary -- ex3_inside_char).  Nothing is assumed about the terminators.  The trace differs: the
   node logs nothing, the expansion logs one negative-predicate frame per skipped character and one for the closing iteration. *)
Theorem C20_skip_rewrite : forall E fuel inh ss X pos st,
  e_su_cut E = true -> good_inp (e_inp E) -> good_cur (e_inp E) pos -> operand_of ss X ->
  tparse E fuel inh (su_expansion X) pos st <> Sem.Fuel ->
  exists p cs,
    su_spec (e_inp E) ss pos p /\
    valid_str cs /\ between (e_inp E) pos p = encode cs /\
    tparse E fuel inh (TSkipUntil ss) pos st = Sem.Ok (p, NSpanned KSkip pos p) st /\
    tparse E fuel inh (su_expansion X) pos st =
      Sem.Ok (p, NRep false (map skip_item cs))
         (mk_state (ron_fail_stk E (stk st)) (neg_tr (S (length cs)) (Sem.tr st))) /\
    cache (ron_fail_stk E (stk st)) = cache (stk st).
Proof. exact C20_skip_rewrite_parse. Qed.
Print Assumptions C20_skip_rewrite.

Theorem C20_skip_rewrite_on_check : forall E fuel inh ss X pos st,
  e_su_cut E = true -> good_inp (e_inp E) -> good_cur (e_inp E) pos -> operand_of ss X ->
  tcheck E fuel inh (su_expansion X) pos st <> Sem.Fuel ->
  exists p cs, su_spec (e_inp E) ss pos p /\ valid_str cs /\ between (e_inp E) pos p = encode cs /\
    tcheck E fuel inh (TSkipUntil ss) pos st = Sem.Ok p st /\
    tcheck E fuel inh (su_expansion X) pos st =
      Sem.Ok p (mk_state (ron_fail_stk E (stk st)) (neg_tr (S (length cs)) (Sem.tr st))) /\
    cache (ron_fail_stk E (stk st)) = cache (stk st).
Proof. exact C20_skip_rewrite_check. Qed.
Print Assumptions C20_skip_rewrite_on_check.

(* the expansion ends within input-length + 5 fuel: the statement above is not vacuous *)
Theorem C20_skip_rewrite_fuel : forall E fuel inh ss X pos st,
  e_su_cut E = true -> good_inp (e_inp E) -> good_cur (e_inp E) pos -> operand_of ss X ->
  i_end (e_inp E) - pos + 5 <= fuel ->
  tparse E fuel inh (su_expansion X) pos st <> Sem.Fuel /\ tcheck E fuel inh (su_expansion X) pos st <> Sem.Fuel.
Proof. exact skip_expansion_fuel. Qed.
Print Assumptions C20_skip_rewrite_fuel.

(* the specification determines the offset *)
Theorem C20_skip_spec_unique : forall I ss pos p q, su_spec I ss pos p -> su_spec I ss pos q -> p = q.
Proof. exact su_spec_unique. Qed.
Print Assumptions C20_skip_spec_unique.
